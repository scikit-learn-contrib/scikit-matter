(* Layer A: interpretation of the matrix-expression language of Base/MExp.v over
   mathcomp matrices on an arbitrary real closed field.  Theorems of the algebraic
   properties are stated about [eval_mx env prog]; the very same [prog] is run on
   binary64 by [MExp.eval_f] in the correspondence check. *)
From mathcomp Require Import all_ssreflect all_algebra.
From Verif Require Import MExp.
Set Implicit Arguments.
Unset Strict Implicit.
Unset Printing Implicit Defensive.
Import GRing.Theory Num.Theory.
Local Open Scope ring_scope.

Section Eval.
  Variable F : rcfType.

  Definition env_mx := forall m n : nat, nat -> 'M[F]_(m, n).

  Definition sfun_mx (f : sfun) (t x : F) : F :=
    match f with
    | Finv_gt => if t < x then x^-1 else 0
    | Fsqrt_gt => if t < x then Num.sqrt x else 0
    | Fisqrt_gt => if t < x then (Num.sqrt x)^-1 else 0
    | Frecip => x^-1
    | Fsqrt => Num.sqrt x
    | Fsquare => x * x
    | Fneg => - x
    | Fpos_part => if t < x then x else 0
    end.

  Definition Z2F (z : BinNums.Z) : F :=
    match z with
    | BinNums.Z0 => 0
    | BinNums.Zpos p => (BinPos.Pos.to_nat p)%:R
    | BinNums.Zneg p => - (BinPos.Pos.to_nat p)%:R
    end.

  Fixpoint eval_mx (env : env_mx) (m n : nat) (e : mexp m n) : 'M[F]_(m, n) :=
    match e in mexp m n return 'M[F]_(m, n) with
    | @MVar m n x => env m n x
    | MConst z => (Z2F z)%:M
    | MZero m n => 0
    | MOnes m n => const_mx 1
    | MId n => 1%:M
    | @MAdd _ _ a b => eval_mx env a + eval_mx env b
    | @MSub _ _ a b => eval_mx env a - eval_mx env b
    | @MMul _ _ _ a b => eval_mx env a *m eval_mx env b
    | @MScale _ _ c a => (eval_mx env c) ord0 ord0 *: eval_mx env a
    | @MTr _ _ a => (eval_mx env a)^T
    | @MDiag _ v => diag_mx (eval_mx env v)^T
    | @MDiagOf _ a => \col_i (eval_mx env a) i i
    | @MMap _ _ f t a => map_mx (sfun_mx f ((eval_mx env t) ord0 ord0)) (eval_mx env a)
    | @MHad _ _ a b => \matrix_(i, j) ((eval_mx env a) i j * (eval_mx env b) i j)
    | @MTrace _ a => (\tr (eval_mx env a))%:M
    end.
End Eval.

(* ---- a worked example: the PCovR modified Gram matrix -------------------------------
   prog:  K~ = a * X X^T + (1 - a) * Yh Yh^T   with variables 0:=X, 1:=Yh, 2:=a (1x1). *)
Definition kernel_prog (n m p : nat) : mexp n n :=
  MAdd (MScale (MVar (m:=1) (n:=1) 2) (MMul (MVar (m:=n) (n:=m) 0) (MTr (MVar (m:=n) (n:=m) 0))))
       (MScale (MSub (MConst (BinNums.Zpos BinNums.xH)) (MVar (m:=1) (n:=1) 2))
               (MMul (MVar (m:=n) (n:=p) 1) (MTr (MVar (m:=n) (n:=p) 1)))).

Section Example.
  Variable F : rcfType.
  Variables (n m p : nat) (env : env_mx F).
  Let X : 'M[F]_(n, m) := env n m 0%N.
  Let Yh : 'M[F]_(n, p) := env n p 1%N.
  Let a : F := (env 1%N 1%N 2%N) ord0 ord0.

  Lemma kernel_prog_formula :
    eval_mx env (kernel_prog n m p) = a *: (X *m X^T) + (1 - a) *: (Yh *m Yh^T).
  Proof. by rewrite /= !mxE /= mulr1n. Qed.

  (* the modified Gram matrix is symmetric *)
  Lemma kernel_prog_sym : (eval_mx env (kernel_prog n m p))^T = eval_mx env (kernel_prog n m p).
  Proof. by rewrite kernel_prog_formula linearD /= !linearZ /= !trmx_mul !trmxK. Qed.
End Example.

(* Matrix facts the programs keep meeting: integer constants, all-ones factors, 1 x 1 matrices. *)
Section MxFacts.
  Variable F : rcfType.

  Lemma Z2F_nat (n : nat) : Z2F F (BinInt.Z.of_nat n) = n%:R.
  Proof. by case: n => [|n] //=; rewrite Pnat.SuccNat2Pos.id_succ. Qed.

  Lemma map_recipE m n t (A : 'M[F]_(m, n)) i j :
    (map_mx (sfun_mx Frecip t) A) i j = (A i j)^-1.
  Proof. by rewrite mxE. Qed.

  Lemma mulmx_ones m n p (A : 'M[F]_(m, n)) i j :
    (A *m (const_mx 1 : 'M_(n, p))) i j = \sum_k A i k.
  Proof. by rewrite mxE; apply: eq_bigr => k _; rewrite mxE mulr1. Qed.

  Lemma ones_mulmx m n p (A : 'M[F]_(n, p)) i j :
    ((const_mx 1 : 'M_(m, n)) *m A) i j = \sum_k A k j.
  Proof. by rewrite mxE; apply: eq_bigr => k _; rewrite mxE mul1r. Qed.

  Lemma ones_ones m n p i j :
    ((const_mx 1 : 'M[F]_(m, n)) *m (const_mx 1 : 'M_(n, p))) i j = n%:R.
  Proof.
    by rewrite mulmx_ones (eq_bigr (fun=> 1)) ?sumr_const ?card_ord // => k _; rewrite mxE.
  Qed.

  Lemma mulmx11 (A B : 'M[F]_1) : (A *m B) ord0 ord0 = A ord0 ord0 * B ord0 ord0.
  Proof. by rewrite mxE big_ord1. Qed.

  Lemma scalar11 (a : F) : (a%:M : 'M[F]_1) ord0 ord0 = a.
  Proof. by rewrite mxE eqxx mulr1n. Qed.
End MxFacts.

(* One-step equations of [eval_mx]: rewriting with them keeps sub-programs folded, unlike /=. *)
Section Steps.
  Variable F : rcfType.
  Variable env : env_mx F.
  Lemma evVar m n x : eval_mx env (@MVar m n x) = env m n x. Proof. by []. Qed.
  Lemma evConst z : eval_mx env (MConst z) = (Z2F F z)%:M. Proof. by []. Qed.
  Lemma evZero m n : eval_mx env (MZero m n) = 0. Proof. by []. Qed.
  Lemma evOnes m n : eval_mx env (MOnes m n) = const_mx 1. Proof. by []. Qed.
  Lemma evId n : eval_mx env (MId n) = 1%:M. Proof. by []. Qed.
  Lemma evAdd m n (a b : mexp m n) : eval_mx env (MAdd a b) = eval_mx env a + eval_mx env b.
  Proof. by []. Qed.
  Lemma evSub m n (a b : mexp m n) : eval_mx env (MSub a b) = eval_mx env a - eval_mx env b.
  Proof. by []. Qed.
  Lemma evMul m n p (a : mexp m n) (b : mexp n p) :
    eval_mx env (MMul a b) = eval_mx env a *m eval_mx env b.
  Proof. by []. Qed.
  Lemma evScale m n (c : mexp 1 1) (a : mexp m n) :
    eval_mx env (MScale c a) = (eval_mx env c) ord0 ord0 *: eval_mx env a.
  Proof. by []. Qed.
  Lemma evTr m n (a : mexp m n) : eval_mx env (MTr a) = (eval_mx env a)^T. Proof. by []. Qed.
  Lemma evDiag n (a : mexp n 1) : eval_mx env (MDiag a) = diag_mx (eval_mx env a)^T.
  Proof. by []. Qed.
  Lemma evDiagOf n (a : mexp n n) : eval_mx env (MDiagOf a) = \col_i (eval_mx env a) i i.
  Proof. by []. Qed.
  Lemma evMap m n f (t : mexp 1 1) (a : mexp m n) :
    eval_mx env (MMap f t a) = map_mx (sfun_mx f ((eval_mx env t) ord0 ord0)) (eval_mx env a).
  Proof. by []. Qed.
  Lemma evHad m n (a b : mexp m n) :
    eval_mx env (MHad a b) = \matrix_(i, j) ((eval_mx env a) i j * (eval_mx env b) i j).
  Proof. by []. Qed.
  Lemma evTrace n (a : mexp n n) : eval_mx env (MTrace a) = (\tr (eval_mx env a))%:M.
  Proof. by []. Qed.

  (* the programs write a / c as the product of a with [MMap Frecip _ c], trace / n likewise *)
  Lemma evScaleRecip m n t (c : mexp 1 1) (a : mexp m n) :
    eval_mx env (MScale (MMap Frecip t c) a) = ((eval_mx env c) ord0 ord0)^-1 *: eval_mx env a.
  Proof. by rewrite evScale evMap mxE. Qed.

  Lemma ev_trace_over n t (A : mexp n n) :
    eval_mx env (MScale (MMap Frecip t (MMul (MOnes 1 n) (MOnes n 1))) (MTrace A))
    = (\tr (eval_mx env A) / n%:R)%:M.
  Proof. by rewrite evScaleRecip evMul !evOnes ones_ones evTrace scale_scalar_mx mulrC. Qed.
End Steps.
