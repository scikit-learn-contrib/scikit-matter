(* Finding F4 (C05): KernelPCovR.score before the repair multiplies  w^T K_VV w  where the
   documented loss has  w^T K_NN w  (w is n_N x n_V).  The product is ill-formed whenever the
   held-out set has a different number of samples than the training set, so score raises; the
   smallest witness is one held-out sample against three training samples.  (For n_V = n_N with
   V <> N the product is well-formed and the value is wrong; with center=True the code moreover
   hands the V x V block to KernelNormalizer.transform, which expects n_N columns.)
   The check harness/props/c05.py finds the failing inputs on the implementation; this file
   records the shape-level witness on the faithful formula. *)
From Coq Require Import List.
From Verif Require Import KPCovR.

Lemma F4_score_code_before_fix_refuted :
  exists n p k v : nat, rshape (raw_score_code_before_fix n p k v) = None.
Proof. exists 3, 1, 1, 1. vm_compute. reflexivity. Qed.

(* ... while the documented formula is fine on the same shapes *)
Lemma F4_score_doc_ok : rshape (raw_score_doc 3 1 1 1) = Some (1, 1).
Proof. vm_compute. reflexivity. Qed.
