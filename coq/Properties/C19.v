(* C19 — DirectionalConvexHull selects the lower-hull vertices and reports signed distances.
   The proofs are in Proofs/DCHP.v (Part A), DCHSpecP.v, DCHChainP.v, DCHExtP.v, DCHInsertP.v (Part B);
   Part C is proved here from the definitions, except scoring after a fit (DCHExtP.v).  Where a
   statement is an instance of a more general lemma the instantiation stands here.
   Models: Model/DCH.v, Model/DCHExt.v.

   Part A: the model of the code after scipy's ConvexHull, over Q.  qhull is an oracle that
   returns facets (normal, offset, vertex ids); its contract
     h1  every sample satisfies n.p + b <= 0 for every facet            [contract_h1]
     h2  the vertices of a kept facet are samples lying on it           [contract_h2]
     h3  the kept facets' projections cover every sample's position     [contract_h3 / in_footprint]
   is a hypothesis here and is validated numerically on every run of the check.
   [hull_distance] is the REPAIRED below/above logic (finding F15: the code as found masks
   `> 0` instead of `>= -tolerance`; Findings/F15_dch_below_mask.v refutes C19_sign for it).

   Part B: the specification of "lower-hull vertex" over Z, independent of Part A:
   [below_combo d P i]: a convex combination (integer weights over a common denominator) of
   the OTHER samples, at the position of sample i, has a target <= y_i;
   [is_lower_vertex] is its negation.  The check compares selected_idx_ with the executable
   simplex form [lower_vertices] and, for one hull dimension, with the monotone chain.

   PARTIAL (stated in comments where they belong): Caratheodory's theorem (completeness of
   the simplex form for 2-3 hull dimensions) is not proved; the contract h1-h3 (+ general
   position and simplicial kept facets for the strict clause) is validated, not proved of qhull.

   On Model/DCHExt.v: strictness of "selected => lower vertex" (C19_selected_lower_strict);
   samples sharing a position (C19_same_position_not_lower, and for one hull dimension the
   complete characterisation / decision procedure on ANY sample list, C19_lower_vertex_1d_any,
   C19_lower_vertex_1d_decision); Part C: the estimator object as a state machine (guard of fit,
   refit = fresh fit, scoring after a refit, the non-atomic failed refit, unfitted object). *)
From Coq Require Import QArith Lqa Sorting.Sorted.
From Verif Require Import ListX DCH DCHP DCHSpecP DCHChainP DCHExt DCHExtP DCHInsertP.

(* selected_idx_ is strictly increasing and lists exactly the vertices of the facets whose
   y-normal is negative *)
Theorem C19_selected_unique_vertices :
  forall fs, StronglySorted lt (selected fs) /\
    forall i, In i (selected fs) <-> exists f, In f (lower_facets fs) /\ In i (fverts f).
Proof. exact selected_spec. Qed.
Print Assumptions C19_selected_unique_vertices.

(* no training sample lies below the hull: the "below" branch is not taken and the distance
   is >= 0 *)
Theorem C19_no_sample_below :
  forall fs P tol, (0 <= tol)%Q -> forall p,
    contract_h1 fs P -> lower_facets fs <> [] -> In p P ->
    exists dd, hull_distance tol (lower_facets fs) p = Some dd /\ (0 <= dd)%Q.
Proof.
  intros fs P tol Htol p H1 Hne Hp.
  destruct (sample_distance fs P tol Htol p H1 Hne Hp) as (dd & ? & ? & _). eauto.
Qed.
Print Assumptions C19_no_sample_below.

(* every selected sample has distance zero *)
Theorem C19_selected_zero :
  forall fs P tol, (0 <= tol)%Q -> forall i,
    contract_h1 fs P -> contract_h2 fs P -> In i (selected fs) ->
    exists dd, hull_distance tol (lower_facets fs) (nth i P []) = Some dd /\ (dd == 0)%Q.
Proof. exact selected_zero. Qed.
Print Assumptions C19_selected_zero.

(* every unselected sample in general position (w.r.t. the hull: only a facet's vertices lie
   on its plane) has positive distance *)
Theorem C19_unselected_positive :
  forall fs P tol, (0 <= tol)%Q -> forall i,
    contract_h1 fs P -> contract_gp fs P -> lower_facets fs <> [] ->
    (i < length P)%nat -> ~ In i (selected fs) ->
    exists dd, hull_distance tol (lower_facets fs) (nth i P []) = Some dd /\ (0 < dd)%Q.
Proof. exact unselected_positive. Qed.
Print Assumptions C19_unselected_positive.

(* the piecewise-linear surface max_f plane_f(x) IS the lower hull of the samples over every
   covered position: it is attained by a convex combination of samples (the vertices of the
   covering facet) and no convex combination of samples at x has a smaller target *)
Theorem C19_surface_is_hull :
  forall d fs P, wf_dim d fs P -> contract_h1 fs P -> contract_h2 fs P ->
  forall x s, length x = d -> in_footprint d fs P x -> surface (lower_facets fs) x = Some s ->
    (exists f lam, In f (lower_facets fs) /\ covers d P f lam x /\
        (s == qdot lam (map (fun v => nth 0 (nth v P []) 0%Q) (fverts f)))%Q) /\
    (forall w, is_combo d P w x -> (s <= combo_target P w)%Q).
Proof. exact surface_is_hull. Qed.
Print Assumptions C19_surface_is_hull.

(* on or above the surface (and down to tol below it) the distance of a query is the vertical
   offset y - max_f plane_f(x) *)
Theorem C19_offset_above :
  forall lf tol, (forall f, In f lf -> (f_ny f < 0)%Q) ->
  forall x y s, surface lf x = Some s -> (s - tol <= y)%Q ->
    exists dd, hull_distance tol lf (y :: x) = Some dd /\ (dd == y - s)%Q.
Proof. exact offset_above. Qed.
Print Assumptions C19_offset_above.

(* positive above, negative below, zero on the surface; a query below the surface by more
   than the tolerance is reported below by more than the tolerance *)
Theorem C19_sign :
  forall lf tol, (forall f, In f lf -> (f_ny f < 0)%Q) ->
  forall x y s dd, (0 <= tol)%Q -> surface lf x = Some s ->
    hull_distance tol lf (y :: x) = Some dd ->
    ((0 < dd)%Q <-> (s < y)%Q) /\ ((dd < 0)%Q <-> (y < s)%Q) /\ ((dd == 0)%Q <-> (y == s)%Q) /\
    ((y < s - tol)%Q -> (dd < - tol)%Q).
Proof. exact distance_sign. Qed.
Print Assumptions C19_sign.

(* "lower vertex => selected" under the contract: an unselected sample has a convex
   combination of OTHER samples (vertices of the covering facet, none of them i) at its
   position with a target <= its own *)
Theorem C19_unselected_not_lower :
  forall d fs P, wf_dim d fs P -> contract_h1 fs P -> contract_h2 fs P ->
  forall i, contract_h3 d fs P -> (i < length P)%nat -> ~ In i (selected fs) ->
    exists f lam, In f (lower_facets fs) /\ covers d P f lam (tl (nth i P [])) /\
      ~ In i (fverts f) /\
      (qdot lam (map (fun v => nth 0 (nth v P []) 0) (fverts f)) <= nth 0 (nth i P []) 0)%Q.
Proof. exact unselected_not_lower. Qed.
Print Assumptions C19_unselected_not_lower.

(* "selected => lower vertex", the <= half, over combinations of ALL samples: the sample lies
   on the lower hull.  The strict half is C19_selected_lower_strict. *)
Theorem C19_selected_lower_partial :
  forall d fs P, wf_dim d fs P -> contract_h1 fs P -> contract_h2 fs P ->
  forall i w, In i (selected fs) -> is_combo d P w (tl (nth i P [])) ->
    (nth 0 (nth i P []) 0 <= combo_target P w)%Q.
Proof. exact selected_lower. Qed.
Print Assumptions C19_selected_lower_partial.

(* "selected => lower vertex", FULL STRENGTH: in general position w.r.t. the hull
   (contract_gp) and with simplicial kept facets (contract_simplex: a convex combination of a
   kept facet's vertices located at its vertex i must use i), the target of a selected sample
   lies STRICTLY below every convex combination of the OTHER samples at its position.
   Together with C19_unselected_not_lower this is the "exactly when" clause of the statement. *)
Theorem C19_selected_lower_strict :
  forall d fs P, wf_dim d fs P -> contract_h1 fs P -> contract_h2 fs P ->
    contract_gp fs P -> contract_simplex d fs P ->
  forall i w, In i (selected fs) -> is_combo d P w (tl (nth i P [])) -> (nth i w 0 == 0)%Q ->
    (nth 0 (nth i P []) 0 < combo_target P w)%Q.
Proof. exact selected_lower_strict. Qed.
Print Assumptions C19_selected_lower_strict.

(* positive affine change of the target y -> a*y + c (a > 0): the hull's facets become
   [taffine a c f] (up to qhull's normalisation, see C19_facet_scaling); they satisfy the
   contract for the transformed samples, the selection is unchanged, distances scale by a *)
Theorem C19_affine_target_contract :
  forall a, (0 < a)%Q -> forall c fs P, (forall p, In p P -> p <> []) ->
    contract_h1 fs P -> contract_h2 fs P ->
    contract_h1 (map (taffine a c) fs) (map (paffine a c) P) /\
    contract_h2 (map (taffine a c) fs) (map (paffine a c) P).
Proof. exact contract_taffine. Qed.
Print Assumptions C19_affine_target_contract.

Theorem C19_affine_target_selection :
  forall a, (0 < a)%Q -> forall c fs, selected (map (taffine a c) fs) = selected fs.
Proof. exact selected_taffine. Qed.
Print Assumptions C19_affine_target_selection.

Theorem C19_affine_target_distance :
  forall a, (0 < a)%Q -> forall c tol lf y x, (forall f, In f lf -> ~ (f_ny f == 0)%Q) ->
    orel a (hull_distance tol lf (y :: x))
           (hull_distance (a * tol) (map (taffine a c) lf) ((a * y + c)%Q :: x)).
Proof. exact hull_distance_taffine. Qed.
Print Assumptions C19_affine_target_distance.

(* the normalisation of a facet's equation does not matter (also used by the check, which
   passes each observed equation multiplied by a power of two) *)
Theorem C19_facet_scaling :
  forall k f p, (0 < k)%Q ->
    is_lower (fscale k f) = is_lower f /\ (gval (fscale k f) p == k * gval f p)%Q /\
    (~ (f_ny f == 0)%Q -> (ddist (fscale k f) p == ddist f p)%Q).
Proof. exact fscale_invariant. Qed.
Print Assumptions C19_facet_scaling.

(* score_feature_matrix: zero residual wherever the interpolant (oracle) reproduces the
   high-dimensional features, which is its contract at the selected samples *)
Theorem C19_feature_residual_zero :
  forall interp low high x,
    Forall2 Qeq (interp (select 0%Q low x)) (select 0%Q high x) ->
    score_feature_matrix interp low high [x]
      = [map2 Qminus (select 0%Q high x) (interp (select 0%Q low x))] /\
    Forall (fun r => (r == 0)%Q) (map2 Qminus (select 0%Q high x) (interp (select 0%Q low x))).
Proof.
  intros interp low high x H. split; [reflexivity|].
  induction H as [|a b l m Hab _ IH]; cbn; [constructor|]. constructor; [lra|exact IH].
Qed.
Print Assumptions C19_feature_residual_zero.

(* positive affine maps of the target do not change which samples are lower vertices *)
Theorem C19_affine_target_spec :
  forall d a c P i, 0 < a -> (i < length P)%nat ->
    (below_combo d (zaffine a c P) i <-> below_combo d P i).
Proof. exact below_combo_affine. Qed.
Print Assumptions C19_affine_target_spec.

(* a sample added strictly above the hull is not a lower vertex and does not change the
   status of any old sample (any number of hull dimensions and samples) *)
Theorem C19_add_above_new :
  forall d P q, strictly_above d P q -> below_combo d (P ++ [q]) (length P).
Proof. exact added_point_not_lower. Qed.
Print Assumptions C19_add_above_new.

Theorem C19_add_above_old :
  forall d P q i, (i < length P)%nat -> strictly_above d P q ->
    (below_combo d (P ++ [q]) i <-> below_combo d P i).
Proof. exact add_above_invariant. Qed.
Print Assumptions C19_add_above_old.

(* soundness of the executable simplex test, 1..3 hull dimensions, any number of samples:
   PARTIAL.  Proved: lower_vertex_b = false => not a lower vertex.  Not proved (Caratheodory's
   theorem): lower_vertex_b = true => is_lower_vertex.  For one hull dimension the specification
   is decided completely by another test, lower_vertex_1d_b (C19_lower_vertex_1d_decision). *)
Theorem C19_simplex_sound_partial :
  forall d P i, (1 <= d <= 3)%nat -> (forall p, In p P -> length p = S d) -> (i < length P)%nat ->
    not_lower_b d P i = true -> below_combo d P i.
Proof. exact not_lower_b_sound. Qed.
Print Assumptions C19_simplex_sound_partial.

(* one hull dimension: the monotone chain over points sorted by x returns exactly the points
   that do not lie on or above a segment between two other points straddling them, in order *)
Theorem C19_chain_1d :
  forall pts, sorted_x pts = true -> chain pts = filter (lower_1d_b pts) pts.
Proof. exact chain_is_lower_hull. Qed.
Print Assumptions C19_chain_1d.

Theorem C19_chain_1d_spec :
  forall pts, StronglySorted xlt pts ->
    StronglySorted xlt (chain pts) /\
    (forall q, In q (chain pts) -> In q pts) /\
    (forall q, In q pts -> ~ In q (chain pts) -> not_lower_1d pts q) /\
    (forall h, In h (chain pts) -> ~ not_lower_1d pts h).
Proof. exact chain_spec. Qed.
Print Assumptions C19_chain_1d_spec.

(* one hull dimension, COMPLETE: for distinct positions the pair form is equivalent to the
   convex-combination specification (Caratheodory in dimension 1), so the chain's result is
   exactly the set of lower vertices *)
Theorem C19_lower_vertex_1d :
  forall P i, (forall p, In p P -> length p = 2%nat) -> (i < length P)%nat ->
    (forall j, (j < length P)%nat -> j <> i -> nth 1 (nth j P []) 0 <> nth 1 (nth i P []) 0) ->
    (below_combo 1 P i <-> not_lower_1d (map pt1 P) (pt1 (nth i P []))).
Proof. intros P i _. apply below_combo_1d. Qed.
Print Assumptions C19_lower_vertex_1d.

Theorem C19_chain_1d_complete :
  forall P pts i, (forall p, In p P -> length p = 2%nat) -> (i < length P)%nat ->
    (forall j, (j < length P)%nat -> j <> i -> nth 1 (nth j P []) 0 <> nth 1 (nth i P []) 0) ->
    sorted_x pts = true -> (forall q, In q pts <-> In q (map pt1 P)) ->
    (In (pt1 (nth i P [])) (chain pts) <-> is_lower_vertex 1 P i).
Proof. intros P pts i _. apply chain_1d_complete. Qed.
Print Assumptions C19_chain_1d_complete.

(* multiplying every low-dimensional coordinate by s <> 0 does not change which samples are
   lower vertices; with C19_affine_target_spec: the selection is invariant under any change of
   units of target and positions (the check fits power-of-two rescalings 2^+-10 .. 2^+-32) *)
Theorem C19_position_scale_spec :
  forall d s P i, s <> 0 -> (i < length P)%nat ->
    (below_combo d (zpscale s P) i <-> below_combo d P i).
Proof. exact below_combo_pscale. Qed.
Print Assumptions C19_position_scale_spec.

(* moving a sample from any index to the end of the sample list does not change which samples
   are lower vertices (indices follow the move) *)
Theorem C19_sample_order_rotation :
  forall d P1 P2 q j, (j < length P1 + S (length P2))%nat ->
    (below_combo d (P1 ++ q :: P2) j <->
     below_combo d ((P1 ++ P2) ++ [q]) (rot_idx (length P1) (length P2) j)).
Proof. exact below_combo_rotate. Qed.
Print Assumptions C19_sample_order_rotation.

(* hence C19_add_above_new / _old hold for a sample INSERTED AT ANY INDEX *)
Theorem C19_insert_above_new :
  forall d P1 P2 q, strictly_above d (P1 ++ P2) q -> below_combo d (P1 ++ q :: P2) (length P1).
Proof. exact inserted_point_not_lower. Qed.
Print Assumptions C19_insert_above_new.

Theorem C19_insert_above_old :
  forall d P1 P2 q i, (i < length (P1 ++ P2))%nat -> strictly_above d (P1 ++ P2) q ->
    (below_combo d (P1 ++ q :: P2) (shift_idx (length P1) i) <-> below_combo d (P1 ++ P2) i).
Proof. exact insert_above_invariant. Qed.
Print Assumptions C19_insert_above_old.

(* any number of hull dimensions and samples: a sample that has ANOTHER sample at the same
   position with a target <= its own is not a lower vertex (whatever the order of the two) *)
Theorem C19_same_position_not_lower :
  forall d P i, (i < length P)%nat -> stacked_below d P i -> below_combo d P i.
Proof. exact stacked_not_lower. Qed.
Print Assumptions C19_same_position_not_lower.

(* one hull dimension, ANY sample list (positions may repeat, any order): Caratheodory in
   dimension 1 without the distinctness hypothesis of C19_lower_vertex_1d *)
Theorem C19_lower_vertex_1d_any :
  forall P i, (forall p, In p P -> length p = 2%nat) -> (i < length P)%nat ->
    (below_combo 1 P i <->
     stacked_below 1 P i \/ not_lower_1d (map pt1 P) (pt1 (nth i P []))).
Proof. intros P i _. apply below_combo_1d_any. Qed.
Print Assumptions C19_lower_vertex_1d_any.

(* ... hence the executable test the check runs on such sample sets is sound and complete *)
Theorem C19_lower_vertex_1d_decision :
  forall P, (forall p, In p P -> length p = 2%nat) ->
  forall i, In i (lower_vertices_1d P) <-> (i < length P)%nat /\ is_lower_vertex 1 P i.
Proof.
  intros P _ i. unfold lower_vertices_1d. rewrite filter_In, in_seq. split.
  - intros [Hi E]. split; [lia|]. apply lower_vertex_1d_b_spec; [lia|exact E].
  - intros [Hi N]. split; [lia|]. now apply lower_vertex_1d_b_spec.
Qed.
Print Assumptions C19_lower_vertex_1d_decision.

(* fit's guard `max(|low_dim_idx|) > n_features and min(low_dim_idx) >= 0`, as written *)
Theorem C19_fit_guard_value_error :
  forall low nfeat, fit_guard low nfeat = ValueErr <->
    (nfeat < zmax_list (map Z.abs low) /\ 0 <= zmin_list low).
Proof.
  intros low nfeat. unfold fit_guard.
  destruct ((nfeat <? zmax_list (map Z.abs low))%Z && (0 <=? zmin_list low)%Z)%bool eqn:E.
  - apply andb_true_iff in E as [E1 E2]. apply Z.ltb_lt in E1. apply Z.leb_le in E2. tauto.
  - split.
    + destruct (existsb _ low); discriminate.
    + intros [E1 E2]. apply Z.ltb_lt in E1. apply Z.leb_le in E2. rewrite E1, E2 in E. discriminate.
Qed.
Print Assumptions C19_fit_guard_value_error.

(* refit = fresh fit: after a successful fit the object's state depends only on its parameters
   and the data, not on anything the object went through before *)
Theorem C19_refit_is_fresh_fit :
  forall o nfeat fs, fit_guard (o_low o) (Z.of_nat nfeat) = Done ->
    obj_fit o nfeat fs = obj_fit (fresh (o_low o) (o_tol o)) nfeat fs.
Proof. intros o nfeat fs H. unfold obj_fit, fresh. cbn [o_low o_tol o_high o_hull]. rewrite H. reflexivity. Qed.
Print Assumptions C19_refit_is_fresh_fit.

(* scoring a (re)fitted object with the fitted feature count IS the function-level
   score_samples of Part A on the kept facets: all theorems of Part A apply to it *)
Theorem C19_score_after_fit :
  forall o nfeat fs X y, fit_guard (o_low o) (Z.of_nat nfeat) = Done ->
    (forall f, In f (lower_facets fs) -> length (fnormal f) = S (length (o_low o))) ->
    let o' := snd (obj_fit o nfeat fs) in
    fst (obj_fit o nfeat fs) = Done /\
    obj_score o' nfeat X y
    = (Done, score_samples (o_tol o) (lower_facets fs) (low_nat (o_low o)) X y).
Proof. exact score_after_fit. Qed.
Print Assumptions C19_score_after_fit.

(* the code as found: a fit that fails its guard (or numpy's bounds check) has already
   overwritten n_features_in_ but keeps the previous hull *)
Theorem C19_failed_refit_keeps_hull :
  forall o nfeat fs,
    fit_guard (o_low o) (Z.of_nat nfeat) = ValueErr \/ fit_guard (o_low o) (Z.of_nat nfeat) = IndexErr ->
    let o' := snd (obj_fit o nfeat fs) in
    fst (obj_fit o nfeat fs) <> Done /\ o_hull o' = o_hull o /\ o_nfeat o' = Some nfeat.
Proof.
  intros o nfeat fs H. cbv zeta. unfold obj_fit.
  destruct H as [H|H]; rewrite H; cbn [fst snd o_hull o_nfeat];
    (split; [intros E; discriminate E|split; reflexivity]).
Qed.
Print Assumptions C19_failed_refit_keeps_hull.

Theorem C19_unfitted_refuses :
  forall low tol ncols X y, obj_score (fresh low tol) ncols X y = (NotFitted, []).
Proof. reflexivity. Qed.
Print Assumptions C19_unfitted_refuses.

(* hull of (x,y) = (-1,1), (0,0), (1,1), (0,2): two lower facets, two upper facets; sample 3 is
   unselected, 2 above the surface.  The contract h1, h2, h3 and general position hold. *)
Definition ex_fs : list facet :=
  [mkFacet [-1; -1]%Q 0%Q [0; 1]%nat; mkFacet [-1; 1]%Q 0%Q [1; 2]%nat;
   mkFacet [1; -1]%Q (-2)%Q [0; 3]%nat; mkFacet [1; 1]%Q (-2)%Q [3; 2]%nat].
Definition ex_P : list (list Q) := [[1; -1]; [0; 0]; [1; 1]; [2; 0]]%Q.
Definition ex_PZ : list (list Z) := [[1; -1]; [0; 0]; [1; 1]; [2; 0]].

Example C19_nonvacuous_contract :
  wf_dim 1 ex_fs ex_P /\ contract_h1 ex_fs ex_P /\ contract_h2 ex_fs ex_P /\
  contract_h3 1 ex_fs ex_P /\ contract_gp ex_fs ex_P /\
  selected ex_fs = [0; 1; 2]%nat /\
  (exists dd, hull_distance (1 # 1000000000000) (lower_facets ex_fs) (nth 3 ex_P []) = Some dd /\ (dd == 2)%Q) /\
  (exists dd, hull_distance (1 # 1000000000000) (lower_facets ex_fs) [- (1 # 2); 1 # 2]%Q = Some dd /\ (dd == -1)%Q) /\
  surface (lower_facets ex_fs) [1 # 2]%Q = Some (1 # 2)%Q.
Proof.
  split; [|split; [|split; [|split; [|split; [|split; [|split; [|split]]]]]]].
  - split.
    + intros f Hf. cbn in Hf. destruct Hf as [<-|[<-|[<-|[<-|[]]]]]; reflexivity.
    + intros p Hp. cbn in Hp. destruct Hp as [<-|[<-|[<-|[<-|[]]]]]; reflexivity.
  - intros f p Hf Hp. cbn in Hf, Hp.
    destruct Hf as [<-|[<-|[<-|[<-|[]]]]]; destruct Hp as [<-|[<-|[<-|[<-|[]]]]]; vm_compute; discriminate.
  - intros f v Hf Hv. cbn in Hf.
    destruct Hf as [<-|[<-|[]]]; cbn in Hv; destruct Hv as [<-|[<-|[]]]; split; vm_compute;
      try reflexivity; repeat constructor.
  - intros p Hp. cbn in Hp.
    assert (Hf0 : In (mkFacet [-1; -1]%Q 0%Q [0; 1]%nat) (lower_facets ex_fs)) by (vm_compute; auto).
    assert (Hf1 : In (mkFacet [-1; 1]%Q 0%Q [1; 2]%nat) (lower_facets ex_fs)) by (vm_compute; auto).
    destruct Hp as [<-|[<-|[<-|[<-|[]]]]];
      [exists (mkFacet [-1; -1]%Q 0%Q [0; 1]%nat), [1; 0]%Q
      |exists (mkFacet [-1; -1]%Q 0%Q [0; 1]%nat), [0; 1]%Q
      |exists (mkFacet [-1; 1]%Q 0%Q [1; 2]%nat), [0; 1]%Q
      |exists (mkFacet [-1; -1]%Q 0%Q [0; 1]%nat), [0; 1]%Q];
      (split; [assumption|]); (split; [reflexivity|]);
      (split; [intros l [<-|[<-|[]]]; vm_compute; discriminate|]);
      (split; [vm_compute; reflexivity|]);
      intros c Hc; assert (c = 0)%nat as -> by lia; vm_compute; reflexivity.
  - intros f i Hf Hi Hg. cbn in Hf, Hi.
    destruct Hf as [<-|[<-|[]]];
      (destruct i as [|[|[|[|i]]]]; [| | | |lia]); cbn [fverts]; vm_compute in Hg; try discriminate; cbn; auto.
  - vm_compute. reflexivity.
  - eexists. split; vm_compute; reflexivity.
  - eexists. split; vm_compute; reflexivity.
  - vm_compute. reflexivity.
Qed.

(* the specification on the same samples: exactly 0, 1, 2 are lower vertices (simplex form and
   chain agree), sample 3 has a witness combination, sample 1 provably has none *)
Example C19_nonvacuous_spec :
  lower_vertices 1 ex_PZ = [0; 1; 2]%nat /\
  chain [(-1, 1); (0, 0); (1, 1)] = [(-1, 1); (0, 0); (1, 1)] /\
  chain [(-1, 1); (0, 2); (1, 1)] = [(-1, 1); (1, 1)] /\
  below_combo 1 ex_PZ 3 /\ is_lower_vertex 1 ex_PZ 1 /\
  strictly_above 1 [[1; -1]; [0; 0]; [1; 1]] [2; 0].
Proof.
  split; [vm_compute; reflexivity|]. split; [vm_compute; reflexivity|]. split; [vm_compute; reflexivity|].
  split; [|split].
  - apply not_lower_b_sound; [lia| |cbn; lia|vm_compute; reflexivity].
    intros p Hp. cbn in Hp. destruct Hp as [<-|[<-|[<-|[<-|[]]]]]; reflexivity.
  - intros (w & W & HW & Hl & Hn & Hz & Hs & Hx & Hy).
    destruct w as [|w0 [|w1 [|w2 [|w3 [|]]]]]; try discriminate.
    pose proof (Hn 0%nat) as N0. pose proof (Hn 2%nat) as N2. pose proof (Hn 3%nat) as N3.
    specialize (Hx 1%nat ltac:(lia)). cbn in *. unfold zsum, dot in *. cbn in *. lia.
  - exists [0; 1; 0], 1. split; [lia|]. split; [reflexivity|].
    split; [intros [|[|[|[|j]]]]; cbn; lia|]. split; [reflexivity|].
    split; [intros c Hc; assert (c = 1)%nat as -> by lia; reflexivity|]. vm_compute. reflexivity.
Qed.

(* The kept facets of the example are simplicial (contract_simplex), so the strict
   theorem applies to it *)
Example C19_nonvacuous_simplex : contract_simplex 1 ex_fs ex_P.
Proof.
  intros f i w Hf Hv (Hl & Hpos & Hsum & Hc) Hz Hi.
  destruct w as [|w0 [|w1 [|w2 [|w3 [|]]]]]; try discriminate.
  specialize (Hc 0%nat ltac:(lia)).
  cbn in Hf. destruct Hf as [<-|[<-|[]]]; cbn in Hv; destruct Hv as [<-|[<-|[]]];
    try (pose proof (Hz 0%nat ltac:(cbn; lia) ltac:(cbn; intuition discriminate)) as A0);
    try (pose proof (Hz 1%nat ltac:(cbn; lia) ltac:(cbn; intuition discriminate)) as A1);
    try (pose proof (Hz 2%nat ltac:(cbn; lia) ltac:(cbn; intuition discriminate)) as A2);
    try (pose proof (Hz 3%nat ltac:(cbn; lia) ltac:(cbn; intuition discriminate)) as A3);
    cbn [nth ex_P tl hd qdot qcol map map2 qsum] in *; lra.
Qed.

(* samples sharing a position: (x,y) = (-1,1), (0,0), (1,1), (0,2), (0,-1): sample 4 sits at the
   position of samples 1 and 3 with the lowest target; it is selected although it comes last,
   samples 1 and 3 are not lower vertices *)
Definition ex_PZ2 : list (list Z) := [[1; -1]; [0; 0]; [1; 1]; [2; 0]; [-1; 0]].
Example C19_nonvacuous_stacked :
  lower_vertices_1d ex_PZ2 = [0; 2; 4]%nat /\ lower_vertices 1 ex_PZ2 = [0; 2; 4]%nat /\
  stacked_below 1 ex_PZ2 1 /\ below_combo 1 ex_PZ2 1 /\ is_lower_vertex 1 ex_PZ2 4.
Proof.
  assert (Hdim : forall p, In p ex_PZ2 -> length p = 2%nat).
  { intros p Hp. cbn in Hp. destruct Hp as [<-|[<-|[<-|[<-|[<-|[]]]]]]; reflexivity. }
  assert (S1 : stacked_below 1 ex_PZ2 1).
  { exists 4%nat. split; [cbn; lia|]. split; [discriminate|]. split.
    - intros c Hc. assert (c = 1)%nat as -> by lia. reflexivity.
    - cbn. lia. }
  split; [vm_compute; reflexivity|]. split; [vm_compute; reflexivity|]. split; [exact S1|].
  split; [apply stacked_not_lower; [cbn; lia|exact S1]|].
  apply (lower_vertex_1d_b_spec ex_PZ2 4); [cbn; lia|vm_compute; reflexivity].
Qed.

(* a life of the object: fit on 3 features with low_dim_idx [0;2] (ok), re-parametrise to [3]
   and refit on 3 features (passes the guard, numpy raises IndexError: the quirk), to [4]
   (ValueError), score with 3 columns (IndexError: the stale hull is still there, low_dim_idx
   is read at call time), re-parametrise to [1] and score (ValueError: the stored equations
   have another dimension), refit (ok), score (ok), score with 2 columns (ValueError) *)
Example C19_nonvacuous_object :
  run_life (fresh [0; 2] 0%Q)
    [OpScore 3; OpFit 3; OpScore 3; OpSet [3]; OpFit 3; OpSet [4]; OpFit 3; OpScore 3;
     OpSet [1]; OpScore 3; OpFit 3; OpScore 3; OpScore 2]
  = [3; 0; 0; 2; 1; 2; 1; 0; 0; 1]%nat /\
  fit_guard [0; 2] 3 = Done /\ fit_guard [3] 3 = IndexErr /\ fit_guard [4] 3 = ValueErr /\
  fit_guard [-1] 3 = Done /\ fit_guard [-4; 9] 3 = IndexErr.
Proof. repeat split; vm_compute; reflexivity. Qed.

(* the sample (0,2) inserted at index 1 of (-1,1), (0,0), (1,1): not a lower vertex, and sample
   (0,0), now at index 2 = shift_idx 1 1, keeps its status *)
Example C19_nonvacuous_insert :
  below_combo 1 ([[1; -1]] ++ [2; 0] :: [[0; 0]; [1; 1]]) 1 /\
  (below_combo 1 ([[1; -1]] ++ [2; 0] :: [[0; 0]; [1; 1]]) (shift_idx 1 1)
   <-> below_combo 1 ([[1; -1]] ++ [[0; 0]; [1; 1]]) 1) /\ shift_idx 1 1 = 2%nat.
Proof.
  assert (A : strictly_above 1 ([[1; -1]] ++ [[0; 0]; [1; 1]]) [2; 0])
    by exact (proj2 (proj2 (proj2 (proj2 (proj2 C19_nonvacuous_spec))))).
  split; [exact (inserted_point_not_lower 1 [[1; -1]] [[0; 0]; [1; 1]] [2; 0] A)|].
  split; [apply (insert_above_invariant 1 [[1; -1]] [[0; 0]; [1; 1]] [2; 0] 1); [cbn; lia|exact A]|reflexivity].
Qed.

(* scaling the positions of the example by 1024: same lower vertices *)
Example C19_nonvacuous_pscale :
  zpscale 1024 ex_PZ = [[1; -1024]; [0; 0]; [1; 1024]; [2; 0]] /\
  lower_vertices 1 (zpscale 1024 ex_PZ) = lower_vertices 1 ex_PZ /\
  below_combo 1 (zpscale 1024 ex_PZ) 3.
Proof.
  split; [reflexivity|]. split; [vm_compute; reflexivity|].
  apply (below_combo_pscale 1 1024 ex_PZ 3); [lia|cbn; lia|].
  exact (proj1 (proj2 (proj2 (proj2 C19_nonvacuous_spec)))).
Qed.
