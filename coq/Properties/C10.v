(* C10 — Ridge2FoldCV equals explicit two-fold cross-validated regularised least squares.
   Statements; each proof applies lemmas of Proofs/Ridge2FoldP.v, Ridge2FoldFitP.v and, for the
   fold choice, Ridge2FoldFitListP.v.
   Model: Model/Ridge2Fold.v (shared scalar code + mexp programs, run on binary64 against the
   implementation) and Model/Ridge2FoldMx.v (the same code and programs over an arbitrary real
   closed field F).  [c_env c] holds the fold data (vX1, vy1, vX2, vy2), the full data (vX, vy),
   the SVD oracle values (vU.., vS.., vV..) and the matrix passed to predict (vXnew);
   [r2f_hyps c] = the three SVD hypotheses (U^T U = I, V^T V = I, X = U diag(s) V^T, s
   non-increasing and non-negative), rcond >= 0, a non-empty grid of non-negative alphas.
   The scorer [c_scorer c] is an arbitrary function of (y_true, y_pred).

   [reg_solution U sr V y a W]  :=  with Xr = U diag(sr) V^T:
        (Xr^T Xr + a I) W = Xr^T y   and   W = Xr^T z for some z.
   [strunc cutoff rcond alpha s]_i  =  s_i  if s_i > rcond (and s_i > alpha for the cut-off
   method), else 0;   [aeff cutoff alpha] = alpha (Tikhonov) resp. 0 (cut-off). *)
From Coq Require Import Permutation.
From mathcomp Require Import all_ssreflect all_algebra.
From Verif Require Import MExp MExpMx Ridge2Fold Ridge2FoldMx MxFrobP Ridge2FoldP Ridge2FoldEx.
From Verif Require Import Ridge2FoldFit Ridge2FoldFitMx Ridge2FoldFitListP Ridge2FoldFitP Ridge2FoldFitEx.
From Verif Require Import Ridge2FoldShuffle.
Set Implicit Arguments.
Unset Strict Implicit.
Unset Printing Implicit Defensive.
Import GRing.Theory Num.Theory.
Local Open Scope ring_scope.

(* The column slices [:n], [:n_alpha] of the code, with n = sum(s > rcond) and
   n_alpha = min(n, sum(s > alpha)), keep exactly the singular directions whose singular
   value exceeds the threshold(s); the filter entries are s/(s^2+alpha) resp. 1/s there. *)
Theorem C10_slices_are_thresholds :
  forall (F : rcfType) k cutoff (rcond alpha : F) (s : 'cV[F]_k) (i : 'I_k),
    (forall i j : 'I_k, (i <= j)%N -> s j ord0 <= s i ord0) ->
    list_col k (gvec (rops F) cutoff (count_gt (rops F) rcond (col_list s)) alpha (col_list s)) i ord0
    = if keep cutoff rcond alpha (s i ord0)
      then (if cutoff then 1 / s i ord0 else s i ord0 / (s i ord0 * s i ord0 + alpha))
      else 0.
Proof. exact: gvecE. Qed.
Print Assumptions C10_slices_are_thresholds.

(* Tikhonov: W = V diag(s/(s^2+alpha))[:n] U^T y solves (Xr^T Xr + alpha I) W = Xr^T y and lies
   in the row space of Xr, the data matrix with the singular values <= rcond removed *)
Theorem C10_tikhonov_fold :
  forall (F : rcfType) (m p k t : nat) (env : env_mx F) (xX xU xS xV xy : nat) (rcond alpha : F),
    [&& xV != vG, xU != vG & xy != vG] ->
    svd_hyp env m p k xX xU xS xV -> 0 <= rcond -> 0 <= alpha ->
    let s := env k 1%N xS in
    let g := list_col k (gvec (rops F) false (count_gt (rops F) rcond (col_list s)) alpha (col_list s)) in
    let W := eval_mx (env_set env vG g) (w_prog m p k t xV vG xU xy) in
    reg_solution (env m k xU) (strunc false rcond alpha s) (env p k xV) (env m t xy) alpha W.
Proof.
  move=> F m p k t env xX xU xS xV xy rcond alpha HG Hs rc0 a0.
  exact: (@fold_reg_solution F m p k t env xX xU xS xV xy false rcond alpha).
Qed.
Print Assumptions C10_tikhonov_fold.

(* cut-off: W = V_r diag(1/s_r) U_r^T y with r = #{s > max(alpha, rcond)} is the least-squares
   solution in the row space (= minimum norm, C10_cutoff_min_norm) for the retained directions *)
Theorem C10_cutoff_fold :
  forall (F : rcfType) (m p k t : nat) (env : env_mx F) (xX xU xS xV xy : nat) (rcond alpha : F),
    [&& xV != vG, xU != vG & xy != vG] ->
    svd_hyp env m p k xX xU xS xV -> 0 <= rcond ->
    let s := env k 1%N xS in
    let g := list_col k (gvec (rops F) true (count_gt (rops F) rcond (col_list s)) alpha (col_list s)) in
    let W := eval_mx (env_set env vG g) (w_prog m p k t xV vG xU xy) in
    reg_solution (env m k xU) (strunc true rcond alpha s) (env p k xV) (env m t xy) 0 W.
Proof.
  move=> F m p k t env xX xU xS xV xy rcond alpha HG Hs rc0.
  exact: (@fold_reg_solution F m p k t env xX xU xS xV xy true rcond alpha).
Qed.
Print Assumptions C10_cutoff_fold.

(* what [reg_solution] means: W minimises |y - Xr w|^2 + a |w|^2 over ALL w ... *)
Theorem C10_reg_solution_minimises :
  forall (F : rcfType) (m p k t : nat) (U : 'M[F]_(m, k)) (sr : 'cV[F]_k) (V : 'M[F]_(p, k))
         (y : 'M[F]_(m, t)) (a : F) (W : 'M[F]_(p, t)),
    reg_solution U sr V y a W -> 0 <= a ->
    let Xr := U *m diag_mx sr^T *m V^T in
    forall w', fn2 (y - Xr *m W) + a * fn2 W <= fn2 (y - Xr *m w') + a * fn2 w'.
Proof. by move=> F m p k t U sr V y a W [H _] a0; exact: normal_eq_min. Qed.
Print Assumptions C10_reg_solution_minimises.

(* ... is the only solution of the regularised normal equations when a > 0 ... *)
Theorem C10_reg_solution_unique :
  forall (F : rcfType) (m p k t : nat) (U : 'M[F]_(m, k)) (sr : 'cV[F]_k) (V : 'M[F]_(p, k))
         (y : 'M[F]_(m, t)) (a : F) (W : 'M[F]_(p, t)),
    reg_solution U sr V y a W ->
    let Xr := U *m diag_mx sr^T *m V^T in
    forall w', 0 < a -> (Xr^T *m Xr + a%:M) *m w' = Xr^T *m y -> w' = W.
Proof. by move=> F m p k t U sr V y a W [H _] Xr w' a0; exact: normal_eq_unique. Qed.
Print Assumptions C10_reg_solution_unique.

(* ... and the minimum-norm least-squares solution when a = 0 (cut-off method) *)
Theorem C10_cutoff_min_norm :
  forall (F : rcfType) (m p k t : nat) (U : 'M[F]_(m, k)) (sr : 'cV[F]_k) (V : 'M[F]_(p, k))
         (y : 'M[F]_(m, t)) (a : F) (W : 'M[F]_(p, t)),
    reg_solution U sr V y a W ->
    let Xr := U *m diag_mx sr^T *m V^T in
    forall w', a = 0 -> Xr^T *m Xr *m w' = Xr^T *m y -> fn2 W <= fn2 w'.
Proof.
  move=> F m p k t U sr V y a W [H [z Hz]] Xr w' a0; apply: min_norm Hz.
  by move: H; rewrite a0 -scalemx1 scale0r addr0.
Qed.
Print Assumptions C10_cutoff_min_norm.

(* the truncated matrix is the data matrix itself whenever the dropped singular values are
   exactly zero (exactly rank-deficient or numerically full-rank data, Tikhonov) *)
Theorem C10_truncation_exact :
  forall (F : rcfType) (m p k : nat) (env : env_mx F) (xX xU xS xV : nat) cutoff (rcond alpha : F),
    svd_hyp env m p k xX xU xS xV ->
    (forall i, ~~ keep cutoff rcond alpha (env k 1%N xS i ord0) -> env k 1%N xS i ord0 = 0) ->
    env m k xU *m diag_mx (strunc cutoff rcond alpha (env k 1%N xS))^T *m (env p k xV)^T = env m p xX.
Proof. exact: fold_trunc_exact. Qed.
Print Assumptions C10_truncation_exact.

(* cv_values_[j] is the mean of the scorer on (model fitted on fold 1, data of fold 2) and
   (model fitted on fold 2, data of fold 1), for the j-th scaled alpha *)
Theorem C10_cv_values :
  forall (F : rcfType) (d : r2f_dims) (c : r2f_cfg F (d_t d)) j,
    (j < size (c_alphas c))%N ->
    let a := nth 0 (salphas c) j in
    nth 0 (cv_values c) j =
    (c_scorer c (c_env c (d_n2 d) (d_t d) vy2) (c_env c (d_n2 d) (d_p d) vX2 *m W1 c a)
     + c_scorer c (c_env c (d_n1 d) (d_t d) vy1) (c_env c (d_n1 d) (d_p d) vX1 *m W2 c a)) / 2%:R.
Proof. exact: cv_values_nth. Qed.
Print Assumptions C10_cv_values.

(* ... where the fold models are the explicit regularised fits *)
Theorem C10_fold_models :
  forall (F : rcfType) (d : r2f_dims) (c : r2f_cfg F (d_t d)) a,
    r2f_hyps c -> c_cutoff c || (0 <= a) ->
    reg_solution (c_env c (d_n1 d) (d_k1 d) vU1)
                 (strunc (c_cutoff c) (c_rcond c) a (c_env c (d_k1 d) 1%N vS1))
                 (c_env c (d_p d) (d_k1 d) vV1) (c_env c (d_n1 d) (d_t d) vy1)
                 (aeff (c_cutoff c) a) (W1 c a)
    /\ reg_solution (c_env c (d_n2 d) (d_k2 d) vU2)
                 (strunc (c_cutoff c) (c_rcond c) a (c_env c (d_k2 d) 1%N vS2))
                 (c_env c (d_p d) (d_k2 d) vV2) (c_env c (d_n2 d) (d_t d) vy2)
                 (aeff (c_cutoff c) a) (W2 c a).
Proof. by move=> F d c a H a0; split; [exact: W1_reg_solution | exact: W2_reg_solution]. Qed.
Print Assumptions C10_fold_models.

(* relative alphas are multiplied by the largest singular value of the two folds; all scaled
   alphas are non-negative *)
Theorem C10_scaled_alphas :
  forall (F : rcfType) (d : r2f_dims) (c : r2f_cfg F (d_t d)) j,
    r2f_hyps c -> (j < size (c_alphas c))%N ->
    nth 0 (salphas c) j
    = (if c_relative c
       then nth 0 (c_alphas c) j * Num.max (lmax (rops F) (s1 c)) (lmax (rops F) (s2 c))
       else nth 0 (c_alphas c) j)
    /\ 0 <= nth 0 (salphas c) j.
Proof. by move=> F d c j H Hj; split; [exact: salphas_nth | exact: salphas_ge0]. Qed.
Print Assumptions C10_scaled_alphas.

(* alpha_ is the FIRST grid value whose cv value is maximal; best_score_ is that value *)
Theorem C10_alpha :
  forall (F : rcfType) (d : r2f_dims) (c : r2f_cfg F (d_t d)),
    r2f_hyps c ->
    let r := best_idx c in
    [/\ (r < size (c_alphas c))%N, alpha_ c = nth 0 (c_alphas c) r,
        best_score c = nth 0 (cv_values c) r,
        forall j, (j < size (c_alphas c))%N -> nth 0 (cv_values c) j <= nth 0 (cv_values c) r
      & forall j, (j < r)%N -> nth 0 (cv_values c) j < nth 0 (cv_values c) r].
Proof. exact: alpha_first_argmax. Qed.
Print Assumptions C10_alpha.

(* coef_^T is the explicit regularised fit on the full data for the chosen scaled alpha *)
Theorem C10_coef :
  forall (F : rcfType) (d : r2f_dims) (c : r2f_cfg F (d_t d)),
    r2f_hyps c ->
    let a := best_scaled_alpha c in
    reg_solution (c_env c (d_n d) (d_k d) vU)
                 (strunc (c_cutoff c) (c_rcond c) a (c_env c (d_k d) 1%N vS))
                 (c_env c (d_p d) (d_k d) vV) (c_env c (d_n d) (d_t d) vy)
                 (aeff (c_cutoff c) a) (coef_ c)^T.
Proof. exact: coef_reg_solution. Qed.
Print Assumptions C10_coef.

(* predict(Xnew) = Xnew coef_^T *)
Theorem C10_predict :
  forall (F : rcfType) (d : r2f_dims) (c : r2f_cfg F (d_t d)),
    predict c = c_env c (d_nn d) (d_p d) vXnew *m (coef_ c)^T.
Proof. exact: predict_E. Qed.
Print Assumptions C10_predict.

(* directions below the numerical rank are excluded: coef_ has no component along a right
   singular vector of X whose singular value is <= rcond
   (false for the code as written, see Findings/F06_ridge2fold_rank.v: C10_rank_refuted) *)
Theorem C10_rank_excluded :
  forall (F : rcfType) (d : r2f_dims) (c : r2f_cfg F (d_t d)),
    r2f_hyps c ->
    forall i : 'I_(d_k d), c_env c (d_k d) 1%N vS i ord0 <= c_rcond c ->
    (col i (c_env c (d_p d) (d_k d) vV))^T *m (coef_ c)^T = 0.
Proof. exact: coef_rank_excluded. Qed.
Print Assumptions C10_rank_excluded.

(* ... so the coefficients stay bounded for rank-deficient X: |coef_|_F <= |y|_F / rcond *)
Theorem C10_coef_bounded :
  forall (F : rcfType) (d : r2f_dims) (c : r2f_cfg F (d_t d)),
    r2f_hyps c -> 0 < c_rcond c ->
    c_rcond c ^+ 2 * fn2 (coef_ c) <= fn2 (c_env c (d_n d) (d_t d) vy).
Proof. exact: coef_bounded. Qed.
Print Assumptions C10_coef_bounded.

(* non-vacuity: over every real closed field there is an instance meeting all hypotheses, with
   one singular direction kept and one cut by rcond *)
Example C10_nonvacuous :
  forall F : rcfType, exists (d : r2f_dims) (c : r2f_cfg F (d_t d)),
    [/\ r2f_hyps c,
        exists i : 'I_(d_k d), c_env c (d_k d) 1%N vS i ord0 <= c_rcond c
      & exists i : 'I_(d_k d), c_rcond c < c_env c (d_k d) 1%N vS i ord0].
Proof.
  move=> F; exists ex_d, (ex_c F); split; first exact: ex_hyps.
  - by exists ord_max; exact: ex_cut.
  - by exists ord0; exact: ex_kept.
Qed.

(* fit as ONE function of the data.
   Model/Ridge2FoldFit.v (guards, scoring=None, fold choice, shapes; shared by the binary64 run)
   and Model/Ridge2FoldFitMx.v: [fit_mx a q w] is the result of
   Ridge2FoldCV(alphas, alpha_type, regularization_method, cv, scoring).fit(X, y) followed by
   predict(Xnew): [inl e] when a guard rejects the configuration, otherwise [inr r] with the
   attributes cv_values_, alpha_, best_score_, coef_ and the prediction.
     a : the data X, y, Xnew and how the folds are chosen ([CvKFold k]: the model computes the
         first yield of an unshuffled KFold(k) itself; [CvGiven splits]: what cv.split yields);
         [X_fold1 a] = X[fold1_idx] etc. ([take_rows]);
     q : the np.linalg.svd results (oracle); [data_hyps] says they ARE singular value
         decompositions of X[fold1_idx], X[fold2_idx], X, that rcond >= 0, the grid is non-empty
         and - for alpha_type "absolute" only - non-negative;
     w : scorer (arbitrary function), alphas, regularization_method (0 "tikhonov", 1 "cutoff",
         other numbers: unknown strings), alpha_type (0 "absolute", 1 "relative"), rcond.
   [explicit_fit U S V y cutoff rcond alpha W]: W solves the (regularised) normal equations of
   the rank-truncated matrix and lies in its row space (C10_reg_solution_minimises,
   C10_cutoff_min_norm say what that means; C10_truncation_error how far the truncated matrix
   is from the data). *)

(* the rejection branches of fit: which configurations raise, and which of the three errors
   (the guards are tested in the order of the code); a relative grid that is accepted lies in
   [0, 1) *)
Theorem C10_fit_outcome :
  forall (F : rcfType) (a : r2f_data F) (q : r2f_oracles a) (w : r2f_params F (a_t a)),
    match fit_mx q w return Prop with
    | inl ErrMethod => (1 < p_method w)%N
    | inl ErrAlphaType => (p_method w <= 1)%N /\ (1 < p_atype w)%N
    | inl ErrRelativeRange =>
        [/\ (p_method w <= 1)%N, p_atype w = 1%N & has (fun x => (x < 0) || (1 <= x)) (p_alphas w)]
    | inr _ =>
        [/\ (p_method w <= 1)%N, (p_atype w <= 1)%N
          & p_atype w = 1%N -> all (fun x => (0 <= x) && (x < 1)) (p_alphas w)]
    end.
Proof. exact: fit_mx_outcome. Qed.
Print Assumptions C10_fit_outcome.

(* fold choice for cv=None/shuffle=False, an integer cv or an unshuffled KFold object: the first
   yield of KFold(k).split on n samples is (fold 1, fold 2) = ([h, n), [0, h)) with
   h = ceil(n / k); every sample occurs exactly once; both folds are non-empty *)
Theorem C10_kfold_first_split :
  forall n k : nat, (2 <= k)%coq_nat -> (k <= n)%coq_nat ->
    let h := kfold_h n k in
    let f1 := fst (kfold_first n k) in
    let f2 := snd (kfold_first n k) in
    f2 = List.seq 0 h /\ f1 = List.seq h (n - h)%coq_nat /\ List.app f2 f1 = List.seq 0 n /\
    List.length f2 = h /\ List.length f1 = (n - h)%coq_nat /\ (0 < h)%coq_nat /\ (h < n)%coq_nat.
Proof. exact: kfold_first_spec. Qed.
Print Assumptions C10_kfold_first_split.

(* the size of fold 2: h = ceil(n / k), and 0 < h < n *)
Theorem C10_kfold_h_is_ceiling :
  forall n k : nat, (2 <= k)%coq_nat -> (k <= n)%coq_nat ->
    (n <= kfold_h n k * k)%coq_nat /\ (kfold_h n k * k < n + k)%coq_nat /\
    (0 < kfold_h n k)%coq_nat /\ (kfold_h n k < n)%coq_nat.
Proof. exact: kfold_h_spec. Qed.
Print Assumptions C10_kfold_h_is_ceiling.

(* X[fold_idx]: row i of the fold matrix is row fold_idx[i] of the data *)
Theorem C10_take_rows :
  forall (F : rcfType) n q (idx : seq nat) (A : 'M[F]_(n, q)) (i : 'I_(size idx)) (r : 'I_n) j,
    nth 0%N idx i = r -> take_rows idx A i j = A r j.
Proof. exact: take_rowsE. Qed.
Print Assumptions C10_take_rows.

(* for a >= 0 the explicit regularised fit is unique ... *)
Theorem C10_explicit_fit_unique :
  forall (F : rcfType) (m p k t : nat) (U : 'M[F]_(m, k)) (sr : 'cV[F]_k) (V : 'M[F]_(p, k))
         (y : 'M[F]_(m, t)) (a : F) (W W' : 'M[F]_(p, t)),
    0 <= a -> reg_solution U sr V y a W -> reg_solution U sr V y a W' -> W' = W.
Proof. exact: reg_solution_inj. Qed.
Print Assumptions C10_explicit_fit_unique.

(* ... and exists, for every grid entry, on fold 1, fold 2 and the full data *)
Theorem C10_explicit_fit_exists :
  forall (F : rcfType) (a : r2f_data F) (q : r2f_oracles a) (w : r2f_params F (a_t a))
         (r : r2f_result F (a_t a) (a_p a) (a_nn a)),
    data_hyps q w -> fit_mx q w = inr r ->
    forall j, (j < size (p_alphas w))%N ->
    let al := scaled_alpha q w (nth 0 (p_alphas w) j) in
    [/\ exists W1', explicit_fit (q_U1 q) (q_S1 q) (q_V1 q) (y_fold1 a) (p_method w == 1%N) (p_rcond w) al W1',
        exists W2', explicit_fit (q_U2 q) (q_S2 q) (q_V2 q) (y_fold2 a) (p_method w == 1%N) (p_rcond w) al W2'
      & exists W', explicit_fit (q_U q) (q_S q) (q_V q) (a_y a) (p_method w == 1%N) (p_rcond w) al W'].
Proof.
  move=> F a q w r Hyp Hr j Hj al; have [HG _] := fit_mx_inr Hr.
  have [_ R1 R2 R3] := code_fits Hyp HG Hj.
  by split; [exists (W1 (data_cfg q w) al) | exists (W2 (data_cfg q w) al) | exists (Wfull (data_cfg q w) al)].
Qed.
Print Assumptions C10_explicit_fit_exists.

(* THE cv clause over the data: for every grid entry j, cv_values_[j] equals the mean of the
   scorer evaluated on (truth = y[fold2], prediction = X[fold2] W1') and
   (y[fold1], X[fold1] W2') for ANY explicit regularised fits W1' on the rows of fold 1 and W2'
   on the rows of fold 2 with the scaled parameter
   [scaled_alpha] = alpha (absolute) resp. alpha * max(s_fold1[0], s_fold2[0]) (relative) *)
Theorem C10_fit_cv_values_explicit :
  forall (F : rcfType) (a : r2f_data F) (q : r2f_oracles a) (w : r2f_params F (a_t a))
         (r : r2f_result F (a_t a) (a_p a) (a_nn a)),
    data_hyps q w -> fit_mx q w = inr r ->
    forall j (W1' W2' : 'M[F]_(a_p a, a_t a)), (j < size (p_alphas w))%N ->
    let al := scaled_alpha q w (nth 0 (p_alphas w) j) in
    explicit_fit (q_U1 q) (q_S1 q) (q_V1 q) (y_fold1 a) (p_method w == 1%N) (p_rcond w) al W1' ->
    explicit_fit (q_U2 q) (q_S2 q) (q_V2 q) (y_fold2 a) (p_method w == 1%N) (p_rcond w) al W2' ->
    nth 0 (res_cv r) j =
    (p_scorer w (y_fold2 a) (X_fold2 a *m W1') + p_scorer w (y_fold1 a) (X_fold1 a *m W2')) / 2%:R.
Proof.
  move=> F a q w r Hyp Hr j W1' W2' Hj al E1 E2; have [HG [-> _ _ _ _]] := fit_mx_inr Hr.
  have [ae0 R1 R2 _] := code_fits Hyp HG Hj.
  rewrite (@cv_values_nth F _ (data_cfg q w) j Hj) /= !envE data_salphas // -/al.
  by rewrite (reg_solution_inj ae0 R1 E1) (reg_solution_inj ae0 R2 E2).
Qed.
Print Assumptions C10_fit_cv_values_explicit.

(* one cv value per alpha; alpha_ is the FIRST grid value with the maximal cv value,
   best_score_ that value *)
Theorem C10_fit_selection :
  forall (F : rcfType) (a : r2f_data F) (q : r2f_oracles a) (w : r2f_params F (a_t a))
         (r : r2f_result F (a_t a) (a_p a) (a_nn a)),
    data_hyps q w -> fit_mx q w = inr r ->
    let b := argmax (rops F) (res_cv r) in
    size (res_cv r) = size (p_alphas w) /\
    [/\ (b < size (p_alphas w))%N,
        res_alpha r = nth 0 (p_alphas w) b, res_best r = nth 0 (res_cv r) b,
        forall j, (j < size (p_alphas w))%N -> nth 0 (res_cv r) j <= nth 0 (res_cv r) b
      & forall j, (j < b)%N -> nth 0 (res_cv r) j < nth 0 (res_cv r) b].
Proof.
  move=> F a q w r Hyp Hr; have [HG [-> -> -> _ _]] := fit_mx_inr Hr.
  have [H1 H2 H3 H4 H5] := alpha_first_argmax (data_r2f_hyps Hyp HG).
  by split; [rewrite size_cv_values | split].
Qed.
Print Assumptions C10_fit_selection.

(* coef_ is the transpose of ANY explicit regularised fit on the full data for the selected
   scaled alpha, and predict(Xnew) = Xnew times it *)
Theorem C10_fit_coef_explicit :
  forall (F : rcfType) (a : r2f_data F) (q : r2f_oracles a) (w : r2f_params F (a_t a))
         (r : r2f_result F (a_t a) (a_p a) (a_nn a)),
    data_hyps q w -> fit_mx q w = inr r ->
    forall W' : 'M[F]_(a_p a, a_t a),
    let b := argmax (rops F) (res_cv r) in
    let al := scaled_alpha q w (nth 0 (p_alphas w) b) in
    explicit_fit (q_U q) (q_S q) (q_V q) (a_y a) (p_method w == 1%N) (p_rcond w) al W' ->
    res_coef r = W'^T /\ res_predict r = a_Xnew a *m W'.
Proof.
  move=> F a q w r Hyp Hr W'; have [HG [-> _ _ -> ->]] := fit_mx_inr Hr => b al E.
  have [Hb Ec] := data_best Hyp HG; have [ae0 _ _ R] := code_fits Hyp HG Hb.
  by rewrite predict_E Ec (reg_solution_inj ae0 E R) trmxK /= envE; split.
Qed.
Print Assumptions C10_fit_coef_explicit.

(* the DEFAULT fold choice (cv=None, shuffle=True) and shuffled KFold objects: for the
   permutation [perm] of the sample indices drawn by the random state (the only oracle input)
   the first yield is a partition of the samples, fold 2 = the first h = ceil(n/k) entries of the
   permutation, fold 1 = the other samples, of sizes h and n - h, both in ascending order
   (filters of 0..n-1, as produced by sklearn's boolean test masks) *)
Theorem C10_kfold_shuffled_split :
  forall (n k : nat) (perm : list nat),
    (2 <= k)%coq_nat -> (k <= n)%coq_nat -> Permutation perm (List.seq 0 n) ->
    let h := kfold_h n k in
    let f1 := fst (kfold_first_shuffled n k perm) in
    let f2 := snd (kfold_first_shuffled n k perm) in
    Permutation (List.app f2 f1) (List.seq 0 n) /\
    (forall i, List.In i f2 <-> List.In i (List.firstn h perm)) /\
    (forall i, List.In i f1 <-> (i < n)%coq_nat /\ ~ List.In i (List.firstn h perm)) /\
    List.length f2 = h /\ List.length f1 = (n - h)%coq_nat /\
    (exists g, f2 = List.filter g (List.seq 0 n)) /\ (exists g, f1 = List.filter g (List.seq 0 n)).
Proof. exact: kfold_first_shuffled_spec. Qed.
Print Assumptions C10_kfold_shuffled_split.

(* how far the rank-truncated matrix of the theorems is from the data matrix:
   |X - Xr|_F^2 <= k * thr^2 with thr = rcond (Tikhonov) resp. max(rcond, alpha) (cut-off) *)
Theorem C10_truncation_error :
  forall (F : rcfType) (m p k : nat) (U : 'M[F]_(m, k)) (V : 'M[F]_(p, k)) (s : 'cV[F]_k),
    U^T *m U = 1%:M -> V^T *m V = 1%:M -> (forall i, 0 <= s i ord0) ->
    forall cutoff (rcond alpha : F), 0 <= rcond ->
    fn2 (U *m diag_mx s^T *m V^T - U *m diag_mx (strunc cutoff rcond alpha s)^T *m V^T)
    <= k%:R * thr cutoff rcond alpha ^+ 2.
Proof. exact: trunc_error. Qed.
Print Assumptions C10_truncation_error.

(* non-vacuity of the data-level theorems: over every real closed field there is a data set
   with the model's own KFold(2) split, a relative grid and the cut-off method that meets
   [data_hyps], is accepted by the guards, and has a fold whose singular value is cut *)
Example C10_fit_nonvacuous :
  forall F : rcfType, exists (a : r2f_data F) (q : r2f_oracles a) (w : r2f_params F (a_t a)),
    [/\ data_hyps q w, exists r, fit_mx q w = inr r, a_spec a = CvKFold 2, p_atype w = 1%N
      & exists i, q_S1 q i ord0 <= p_rcond w].
Proof.
  move=> F; exists (fx_a F), (fx_q F), (fx_w F); split=> //.
  - exact: fx_hyps.
  - exact: fx_fit.
  - exact: fx_cut.
Qed.
