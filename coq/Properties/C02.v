(* C02 — FPS and PCov-FPS pick a farthest candidate each step and report true distances.
   Each statement is read off the invariant of the fitted state ([FInv]: table and select
   distances are the true minima; Proofs/FPSP.v, instantiated in C02Thm.v / FPSExtP.v) or is
   `exact <lemma>` from Proofs/.  Model: Model/FPS.v, Model/Greedy.v.
   [tabmin dist j s] is the true minimum of dist(j, i) over i in s (None = +inf for empty s);
   [fps_dist cs j l] is the squared Euclidean distance between candidates j and l; [pcov_dist X Y a j l] = a*d2_X(j,l) + (4-a)*d2_Y(j,l),
   i.e. 4x the distance induced by the modified Gram matrix at mixing a/4. *)
From Verif Require Import ListX Greedy FPS FPSExt ListXP FPSP FPSInst C02Thm FPSExtP FPSNetP FPSNetInstP.

(* new_dist = norms_ + norms_[l] - 2 X[l] @ X.T is the vector of squared distances *)
Theorem C02_update_is_sqdist :
  forall cs d, dims d cs -> forall l, (l < length cs)%nat ->
    newdist (fps_norms cs) (fps_cross cs) l
    = map (fun j => sqdist (nth j cs []) (nth l cs [])) (seq 0 (length cs)).
Proof. exact fps_newdist. Qed.
Print Assumptions C02_update_is_sqdist.

(* the reported per-candidate table is the true minimum distance to the selected set,
   after any number of steps, for every input, initialisation and threshold *)
Theorem C02_table_true :
  forall cs d ycand, dims d cs -> forall inits t niter g' st,
    NoDup inits -> in_range (length cs) inits ->
    fps_fit cs ycand inits t niter = (g', st) ->
    haus (sst g') = map (fun j => tabmin (fps_dist cs) j (sel g')) (seq 0 (length cs)).
Proof. intros cs d ycand Hd inits t niter g' st Hnd Hr Hfit. apply (fps_fit_inv cs d ycand Hd inits t niter g' st Hnd Hr Hfit). Qed.
Print Assumptions C02_table_true.

(* every selection made by the loop is a candidate whose minimum distance to all earlier
   selections is maximal (first such index), and is not yet selected *)
Theorem C02_step_farthest :
  forall cs d ycand, dims d cs -> forall inits t niter g' st,
    NoDup inits -> in_range (length cs) inits ->
    fps_fit cs ycand inits t niter = (g', st) -> inits <> [] ->
    exists new, sel g' = inits ++ new /\ farthest_seq cs (fps_dist cs) inits new.
Proof. exact fps_steps_farthest. Qed.
Print Assumptions C02_step_farthest.

(* get_select_distance()[k] is the true minimum distance of the k-th selection to the
   selections before it *)
Theorem C02_select_distance :
  forall cs d ycand, dims d cs -> forall inits t niter g' st,
    NoDup inits -> in_range (length cs) inits ->
    fps_fit cs ycand inits t niter = (g', st) ->
    forall k, (k < length (sel g'))%nat ->
      nth k (select_distance g') None
      = tabmin (fps_dist cs) (nth k (sel g') O) (firstn k (sel g')).
Proof.
  intros cs d ycand Hd inits t niter g' st Hnd Hr Hfit k.
  apply (FInv_select_distance cs ycand), (fps_fit_inv cs d ycand Hd inits t niter g' st Hnd Hr Hfit).
Qed.
Print Assumptions C02_select_distance.

(* the select distances never increase along the selections made by the loop *)
Theorem C02_distances_nonincreasing :
  forall cs dist s new, farthest_seq cs dist s new -> nonincreasing (dists dist s new).
Proof. exact farthest_dists_nonincreasing. Qed.
Print Assumptions C02_distances_nonincreasing.

(* the first selections are exactly the requested initial indices *)
Theorem C02_initial :
  forall cs d ycand, dims d cs -> forall inits t niter g' st,
    NoDup inits -> in_range (length cs) inits ->
    fps_fit cs ycand inits t niter = (g', st) ->
    firstn (length inits) (sel g') = inits.
Proof.
  intros cs d ycand Hd inits t niter g' st Hnd Hr Hfit.
  exact (initial_selections cs ycand _ _ _ (fps_newdist cs d Hd) inits Hnd Hr t _ g' st Hfit).
Qed.
Print Assumptions C02_initial.

(* sample FPS on X and feature FPS on X^T select identically: feature selection runs the
   same loop on the columns of its argument, and the columns of X^T are the rows of X *)
Theorem C02_duality :
  forall w X ycand inits t niter, dims w X ->
    fps_fit (transpose (length X) (transpose w X)) ycand inits t niter
    = fps_fit X ycand inits t niter.
Proof. intros w X ycand inits t niter H. now rewrite (transpose_involutive w X H). Qed.
Print Assumptions C02_duality.

(* PCov-FPS, sample direction, mixing a/4: the distance read off the modified Gram matrix
   is the mixed squared distance, the table is true for it and every step is farthest *)
Theorem C02_pcov_sample_distance :
  forall X Y dx dy a, dims dx X -> dims dy Y -> length Y = length X ->
    forall j l, (j < length X)%nat -> (l < length X)%nat ->
    kentry a X Y j j + kentry a X Y l l - 2 * kentry a X Y l j = pcov_dist X Y a j l.
Proof. exact kentry_dist. Qed.
Print Assumptions C02_pcov_sample_distance.

Theorem C02_pcov_table_true :
  forall X Y dx dy a ycand,
    dims dx X -> dims dy Y -> length Y = length X ->
    forall i0 t niter g' st, (i0 < length X)%nat ->
    pcov_fit false (kernel4 a X Y) X ycand i0 t niter = (g', st) ->
    haus (sst g') = map (fun j => tabmin (pcov_dist X Y a) j (sel g')) (seq 0 (length X)).
Proof.
  intros X Y dx dy a ycand HdX HdY HlenY i0 t niter g' st Hi0 Hfit.
  apply (pcov_fit_inv false X Y dx dy a ycand HdX HdY HlenY i0 t niter g' st Hi0 Hfit).
Qed.
Print Assumptions C02_pcov_table_true.

Theorem C02_pcov_step_farthest :
  forall X Y dx dy a ycand, 0 <= a <= 4 ->
    dims dx X -> dims dy Y -> length Y = length X ->
    forall i0 t niter g' st, (i0 < length X)%nat ->
    pcov_fit false (kernel4 a X Y) X ycand i0 t niter = (g', st) ->
    exists new, sel g' = [i0] ++ new /\ farthest_seq X (pcov_dist X Y a) [i0] new.
Proof. exact (pcov_steps_farthest false). Qed.
Print Assumptions C02_pcov_step_farthest.

(* non-vacuity: a concrete input with exact ties meets the hypotheses and is non-trivial *)
Example C02_nonvacuous :
  let cs := [[0;0];[3;0];[0;3];[3;3];[1;1]] in
  dims 2 cs /\ NoDup [4%nat] /\ in_range 5 [4%nat] /\
  sel (fst (fps_fit cs None [4%nat] NoThr 4)) = [4; 3; 1; 2]%nat /\
  select_distance (fst (fps_fit cs None [4%nat] NoThr 4)) = [None; Some 8; Some 5; Some 5].
Proof.
  vm_compute. split; [repeat constructor|]. split; [repeat constructor; intros []|].
  repeat split; repeat constructor.
Qed.

(* Any matrix, both directions, chains of fits.  Model/FPSExt.v, Proofs/FPSExtP.v.
   [mdist axis1 D j l] = D_jj + D_ll - 2 * (axis1 ? D_jl : D_lj) is the distance that
   _PCovFPS._update_hausdorff forms from the matrix pcovr_distance_ (np.take(D, l, axis));
   [fps_chain] / [pcov_chain] = a cold fit followed by warm-started continuations
   (fit(warm_start=True)), any number of stages, any thresholds. *)
(* PCov-FPS, BOTH directions, ANY square matrix in pcovr_distance_: the reported table and the
   reported select distances are the true minima of the distance induced by that matrix *)
Theorem C02_pcov_matrix_table_true :
  forall (axis1 : bool) (D cs : list (list Z)) ycand, sqmat (length cs) D ->
    forall i0 t niter g' st, (i0 < length cs)%nat ->
    pcov_fit axis1 D cs ycand i0 t niter = (g', st) ->
    haus (sst g') = map (fun j => tabmin (mdist axis1 D) j (sel g')) (seq 0 (length cs)).
Proof.
  intros axis1 D cs ycand Hsq i0 t niter g' st Hi0 Hfit.
  apply (mat_fit_inv axis1 D cs ycand Hsq i0 t niter g' st Hi0 Hfit).
Qed.
Print Assumptions C02_pcov_matrix_table_true.

Theorem C02_pcov_matrix_select_distance :
  forall (axis1 : bool) (D cs : list (list Z)) ycand, sqmat (length cs) D ->
    forall i0 t niter g' st, (i0 < length cs)%nat ->
    pcov_fit axis1 D cs ycand i0 t niter = (g', st) ->
    forall k, (k < length (sel g'))%nat ->
      nth k (select_distance g') None
      = tabmin (mdist axis1 D) (nth k (sel g') O) (firstn k (sel g')).
Proof.
  intros axis1 D cs ycand Hsq i0 t niter g' st Hi0 Hfit k.
  apply (FInv_select_distance cs ycand), (mat_fit_inv axis1 D cs ycand Hsq i0 t niter g' st Hi0 Hfit).
Qed.
Print Assumptions C02_pcov_matrix_select_distance.

(* PCov-FPS, FEATURE direction (and again the sample direction: [axis1] is arbitrary).  With F the
   feature vectors (columns of X) and CY the rows of C_Y = (X^T X)^(-1/2) X^T Y, the modified
   covariance at mixing a/4 is 4 C~ = a X^T X + (4-a) C_Y C_Y^T = [kernel4 a F CY]; reading its
   COLUMNS (axis 1) the table is the true minimum of the mixed squared distance
   a |x_j - x_l|^2 + (4-a) |cy_j - cy_l|^2 and every step is farthest for it. *)
Theorem C02_pcov_feature_table_true :
  forall (axis1 : bool) F CY dx dy a ycand,
    dims dx F -> dims dy CY -> length CY = length F ->
    forall i0 t niter g' st, (i0 < length F)%nat ->
    pcov_fit axis1 (kernel4 a F CY) F ycand i0 t niter = (g', st) ->
    haus (sst g') = map (fun j => tabmin (pcov_dist F CY a) j (sel g')) (seq 0 (length F)).
Proof.
  intros axis1 F CY dx dy a ycand HdF HdC HlenC i0 t niter g' st Hi0 Hfit.
  apply (pcov_fit_inv axis1 F CY dx dy a ycand HdF HdC HlenC i0 t niter g' st Hi0 Hfit).
Qed.
Print Assumptions C02_pcov_feature_table_true.

Theorem C02_pcov_feature_select_distance :
  forall (axis1 : bool) F CY dx dy a ycand,
    dims dx F -> dims dy CY -> length CY = length F ->
    forall i0 t niter g' st, (i0 < length F)%nat ->
    pcov_fit axis1 (kernel4 a F CY) F ycand i0 t niter = (g', st) ->
    forall k, (k < length (sel g'))%nat ->
      nth k (select_distance g') None
      = tabmin (pcov_dist F CY a) (nth k (sel g') O) (firstn k (sel g')).
Proof.
  intros axis1 F CY dx dy a ycand HdF HdC HlenC i0 t niter g' st Hi0 Hfit k.
  apply (FInv_select_distance F ycand), (pcov_fit_inv axis1 F CY dx dy a ycand HdF HdC HlenC i0 t niter g' st Hi0 Hfit).
Qed.
Print Assumptions C02_pcov_feature_select_distance.

Theorem C02_pcov_feature_step_farthest :
  forall (axis1 : bool) F CY dx dy a ycand, 0 <= a <= 4 ->
    dims dx F -> dims dy CY -> length CY = length F ->
    forall i0 t niter g' st, (i0 < length F)%nat ->
    pcov_fit axis1 (kernel4 a F CY) F ycand i0 t niter = (g', st) ->
    exists new, sel g' = [i0] ++ new /\ farthest_seq F (pcov_dist F CY a) [i0] new.
Proof. exact pcov_steps_farthest. Qed.
Print Assumptions C02_pcov_feature_step_farthest.

(* Histories: after a cold fit and ANY number of warm-started continuations (any thresholds, any
   n_to_select per stage) the table is still the true minimum distance to everything selected so
   far, the select distances are the true minima at selection time, nothing is selected twice and
   EVERY selection after the initial ones - in whichever stage it was made - was a farthest
   candidate w.r.t. all earlier selections. *)
Theorem C02_warm_chain :
  forall cs d ycand, dims d cs -> forall inits stages,
    NoDup inits -> in_range (length cs) inits -> inits <> [] ->
    let g := fps_chain cs ycand inits stages in
    haus (sst g) = map (fun j => tabmin (fps_dist cs) j (sel g)) (seq 0 (length cs)) /\
    (forall k, (k < length (sel g))%nat ->
       nth k (select_distance g) None = tabmin (fps_dist cs) (nth k (sel g) O) (firstn k (sel g))) /\
    NoDup (sel g) /\
    exists new, sel g = inits ++ new /\ farthest_seq cs (fps_dist cs) inits new.
Proof.
  intros cs d ycand Hd inits stages Hnd Hr Hne.
  apply (ChainInv_facts cs ycand (fps_dist cs) inits).
  apply (chain_inv cs ycand _ _ _ (fps_newdist cs d Hd) (fps_dist_nonneg cs) (fps_dist_self cs) inits stages Hne).
  exact (init_chain_inv cs ycand _ _ _ (fps_newdist cs d Hd) inits Hnd Hr).
Qed.
Print Assumptions C02_warm_chain.

Theorem C02_pcov_warm_chain :
  forall (axis1 : bool) F CY dx dy a ycand, 0 <= a <= 4 ->
    dims dx F -> dims dy CY -> length CY = length F ->
    forall i0 stages, (i0 < length F)%nat ->
    let g := pcov_chain axis1 (kernel4 a F CY) F ycand i0 stages in
    haus (sst g) = map (fun j => tabmin (pcov_dist F CY a) j (sel g)) (seq 0 (length F)) /\
    (forall k, (k < length (sel g))%nat ->
       nth k (select_distance g) None
       = tabmin (pcov_dist F CY a) (nth k (sel g) O) (firstn k (sel g))) /\
    NoDup (sel g) /\
    exists new, sel g = [i0] ++ new /\ farthest_seq F (pcov_dist F CY a) [i0] new.
Proof.
  intros axis1 F CY dx dy a ycand Ha HdF HdC HlenC i0 stages Hi0.
  pose proof (pcov_newdist F CY dx dy a HdF HdC HlenC axis1) as Hnew.
  apply (ChainInv_facts F ycand (pcov_dist F CY a) [i0]).
  apply (chain_inv F ycand _ _ _ Hnew (pcov_dist_nonneg F CY a Ha) (pcov_dist_self F CY a) [i0] stages);
    [discriminate|].
  apply (init_chain_inv F ycand _ _ _ Hnew [i0]); repeat constructor; [intros []|exact Hi0].
Qed.
Print Assumptions C02_pcov_warm_chain.

(* non-vacuity: a feature-direction run on a Gram matrix with ties, continued warm; and a
   non-symmetric matrix on which the two axes induce different distances *)
Example C02_ext_nonvacuous :
  let F := [[2;0];[0;2];[2;2];[1;1]] in let CY := [[1];[0];[3];[1]] in
  dims 2 F /\ dims 1 CY /\ length CY = length F /\
  sel (pcov_chain true (kernel4 2 F CY) F None 0 [(NoThr, 2%nat); (NoThr, 4%nat)]) = [0; 1; 2; 3]%nat /\
  select_distance (pcov_chain true (kernel4 2 F CY) F None 0 [(NoThr, 2%nat); (NoThr, 4%nat)])
    = [None; Some 18; Some 16; Some 4] /\
  sel (fps_chain F None [3%nat] [(NoThr, 2%nat); (NoThr, 3%nat)]) = [3; 0; 1]%nat /\
  mdist true [[0;1];[5;0]] 0 1 <> mdist false [[0;1];[5;0]] 0 1.
Proof.
  vm_compute. split; [repeat constructor|]. split; [repeat constructor|].
  repeat split. discriminate.
Qed.

(* The selections form an r-net, r = the distance at which the last selection was made.
   Proofs/FPSNetP.v, Proofs/FPSNetInstP.v. *)
(* covering: just before its last selection i the loop had every candidate within
   r = tabmin i (s ++ new) of the selected set; ANY distance, ANY farthest sequence *)
Theorem C02_net_covering :
  forall cs dist s new i, farthest_seq cs dist s (new ++ [i]) ->
    forall j, (j < length cs)%nat ->
      ext_le (tabmin dist j (s ++ new)) (tabmin dist i (s ++ new)).
Proof. exact farthest_net_covering. Qed.
Print Assumptions C02_net_covering.

(* packing: every selection of the loop was made at distance >= r from all earlier ones *)
Theorem C02_net_packing :
  forall cs dist s new i, farthest_seq cs dist s (new ++ [i]) ->
    Forall (fun d => ext_le (tabmin dist i (s ++ new)) d) (dists dist s (new ++ [i])).
Proof. exact farthest_net_packing. Qed.
Print Assumptions C02_net_packing.

(* the r-net as the fitted object reports it: get_distance() is nowhere above
   get_select_distance()[-1], and no selection made by the loop has a smaller select
   distance than the last one; every input, initialisation, threshold and iteration count *)
Theorem C02_net_reported :
  forall cs d ycand, dims d cs -> forall inits t niter g' st,
    NoDup inits -> in_range (length cs) inits ->
    fps_fit cs ycand inits t niter = (g', st) -> inits <> [] ->
    (length inits < length (sel g'))%nat ->
    let r := nth (length (sel g') - 1)%nat (select_distance g') None in
    Forall (fun h => ext_le h r) (haus (sst g')) /\
    forall k, (length inits <= k < length (sel g'))%nat ->
      ext_le r (nth k (select_distance g') None).
Proof. exact fps_net. Qed.
Print Assumptions C02_net_reported.

(* non-vacuity: the run of C02_nonvacuous ([4] -> [4;3;1;2], distances [inf;8;5;5]) meets
   the hypotheses; r = 5 and the table it reports is [2;0;0;0;0] *)
Example C02_net_nonvacuous :
  let cs := [[0;0];[3;0];[0;3];[3;3];[1;1]] in
  let g := fst (fps_fit cs None [4%nat] NoThr 4) in
  (length [4%nat] < length (sel g))%nat /\
  nth (length (sel g) - 1)%nat (select_distance g) None = Some 5 /\
  haus (sst g) = [Some 2; Some 0; Some 0; Some 0; Some 0].
Proof. vm_compute. split; [repeat constructor|]. split; reflexivity. Qed.

(* ---- layer A: the distance induced by pcovr_covariance / pcovr_kernel ----------------------
   [idist M i j] = M_ii + M_jj - 2 M_ij.  cov_prog / kern_prog / cy_prog are the programs of
   Model/PCovR.v that the correspondence check runs against pcovr_distance_ on float data
   (Model/PCovFPSDist.v); eval_mx is their value over an ARBITRARY real closed field, for ALL
   shapes.  No oracle hypothesis is needed: whatever eigh returned, the induced distance is a
   mixed squared Euclidean distance (that C_Y is built from the inverse square root of X^T X
   when eigh is right is Properties/C03.v, C03_isqrt_spec). *)
From mathcomp Require Import all_ssreflect all_algebra.
From Verif Require Import MExp MExpMx PCovR PCovRP PCovRProg PCovDistP.
Import GRing.Theory Num.Theory.
Local Open Scope ring_scope.

Theorem C02_cov_distance :
  forall (F : rcfType) (n m p : nat) (env : env_mx F), 0 <= e_a env <= 1 ->
    forall i j : 'I_m,
      let Ct := eval_mx env (cov_prog n m p) in
      let CY := eval_mx env (cy_prog n m p) in
      let X := e_X n m env in
      [/\ idist Ct i j = e_a env * (\sum_q (X q i - X q j) ^+ 2)
                         + (1 - e_a env) * (\sum_q (CY i q - CY j q) ^+ 2),
          0 <= idist Ct i j, idist Ct i i = 0 & Ct i j = Ct j i].
Proof. exact cov_distance_spec. Qed.
Print Assumptions C02_cov_distance.

Theorem C02_kernel_distance :
  forall (F : rcfType) (n m p : nat) (env : env_mx F), 0 <= e_a env <= 1 ->
    forall i j : 'I_n,
      let Kt := eval_mx env (kern_prog n m p) in
      let X := e_X n m env in let Y := e_Yh n p env in
      [/\ idist Kt i j = e_a env * (\sum_q (X i q - X j q) ^+ 2)
                         + (1 - e_a env) * (\sum_q (Y i q - Y j q) ^+ 2),
          0 <= idist Kt i j, idist Kt i i = 0 & Kt i j = Kt j i].
Proof. exact kern_distance_spec. Qed.
Print Assumptions C02_kernel_distance.

Example C02_distance_nonvacuous :
  forall F : rcfType, exists env : env_mx F,
    [/\ 0 <= e_a env <= 1, e_X 2 1 env != 0
      & idist (eval_mx env (kern_prog 2 1 1)) ord0 (lift ord0 ord0) = 4%:R].
Proof. exact dist_example. Qed.
