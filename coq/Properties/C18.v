(* C18 — OrthogonalRegression yields an orthogonal map that is Procrustes-optimal.
   Statements; each proof instantiates the theorems about plain matrices of Proofs/OrthRegP.v
   (sections Procrustes, Projector), OrthRegExtP.v, or applies a lemma of OrthRegHistP.v.
   Model: Model/OrthReg.v (mexp programs, run on binary64 against the implementation) and
   Model/OrthRegMx.v (hypotheses on the SVD oracle variables).  Over an arbitrary real closed
   field F and all shapes.  [fn2 A] = |A|_F^2 = tr(A^T A);  [val11 env e] = value of a 1 x 1 program.

   Padded mode, [pad_hyp env n q]: A = env oA, B = env oB are the zero-padded X, y (n x q,
   q = max(n_features, n_targets)); (oUp, oSp, oVp) satisfy U^T U = I, V^T V = I (q x q),
   A^T B = U diag(s) V^T, s >= 0 (what scipy's svd inside orthogonal_procrustes returns).
   [pad_coef q] = (U V^T)^T is coef_,  [pad_R q] = coef_^T the fitted map.
   Projector mode, [proj_hyp env n p t r]: Uc (p x r), Vc (t x r) have orthonormal columns (thin
   SVD factors of the linear estimator's coefficients), (oUi, oSi, oVi) is such an SVD of
   (X Uc)^T (y Vc);  [proj_coef p t r] = (Uc Ui Vi^T Vc^T)^T is coef_. *)
From mathcomp Require Import all_ssreflect all_algebra.
From Verif Require Import MExp MExpMx Ridge2Fold Ridge2FoldMx OrthReg OrthRegMx MxFrobP Ridge2FoldP OrthRegP.
From Verif Require Import OrthRegExt OrthRegExtP OrthRegHist OrthRegHistP.
Set Implicit Arguments.
Unset Strict Implicit.
Unset Printing Implicit Defensive.
Import GRing.Theory Num.Theory.
Local Open Scope ring_scope.

(* the residual programs evaluated by the correspondence check compute |b - a w|_F^2 *)
Theorem C18_residual_program :
  forall (F : rcfType) (env : env_mx F) n p t (a : mexp n p) (b : mexp n t) (w : mexp p t),
    val11 env (resid_prog n p t a b w) = fn2 (eval_mx env b - eval_mx env a *m eval_mx env w).
Proof. exact: resid_progE. Qed.
Print Assumptions C18_residual_program.

(* padded mode: coef_ is orthogonal *)
Theorem C18_orthogonal :
  forall (F : rcfType) (n q : nat) (env : env_mx F), pad_hyp env n q ->
    let Cf := eval_mx env (pad_coef q) in Cf^T *m Cf = 1%:M /\ Cf *m Cf^T = 1%:M.
Proof.
  move=> F n q env /pad_hyp_svd[UU VV _ _] /=; rewrite trmxK.
  by split; [exact: procR_orthr | exact: procR_orthl].
Qed.
Print Assumptions C18_orthogonal.

(* ... so predictions have exactly the norm of their (padded) inputs *)
Theorem C18_norm_preserved :
  forall (F : rcfType) (n q : nat) (env : env_mx F), pad_hyp env n q ->
    forall m (Z : 'M[F]_(m, q)), fn2 (Z *m (eval_mx env (pad_coef q))^T) = fn2 Z.
Proof. exact: pad_norm. Qed.
Print Assumptions C18_norm_preserved.

(* padded mode: the training residual |B - A coef_^T| is no larger than |B - A Omega| for EVERY
   orthogonal Omega of the padded size *)
Theorem C18_optimal :
  forall (F : rcfType) (n q : nat) (env : env_mx F), pad_hyp env n q ->
    forall Om : 'M[F]_q, Om^T *m Om = 1%:M ->
      val11 env (resid_prog n q q (pA n q) (pB n q) (pad_R q))
      <= val11 (env_set env oW Om) (resid_prog n q q (pA n q) (pB n q) (MVar (m:=q) (n:=q) oW)).
Proof.
  move=> F n q env /pad_hyp_svd[UU VV HM Hs] Om OO.
  rewrite !resid_progE /= env_set_same !env_set_other //; exact: (procR_optimal UU VV HM Hs OO).
Qed.
Print Assumptions C18_optimal.

(* padded mode: if B = A Q for an orthogonal Q the training residual vanishes, and the fitted
   map IS Q whenever A has a left inverse (full column rank; n_features >= n_targets) *)
Theorem C18_recovers_rotation :
  forall (F : rcfType) (n q : nat) (env : env_mx F), pad_hyp env n q ->
    forall Q : 'M[F]_q, Q^T *m Q = 1%:M -> env n q oB = env n q oA *m Q ->
      env n q oA *m (eval_mx env (pad_coef q))^T = env n q oB
      /\ forall L : 'M[F]_(q, n), L *m env n q oA = 1%:M -> (eval_mx env (pad_coef q))^T = Q.
Proof.
  move=> F n q env /pad_hyp_svd[UU VV HM Hs] Q QQ HB; rewrite pad_coefE trmxK.
  split=> [|L HL]; first exact: (procR_recovers UU VV HM Hs QQ HB).
  exact: (procR_recovers_map UU VV HM Hs QQ HB HL).
Qed.
Print Assumptions C18_recovers_rotation.

(* ... and when X was padded with z zero columns (n_features < n_targets) and has full column
   rank, the fitted map equals Q on X's block of rows *)
Theorem C18_recovers_rotation_block :
  forall (F : rcfType) n p z (env : env_mx F) (X : 'M[F]_(n, p)) (Q : 'M[F]_(p + z)) (L : 'M[F]_(p, n)),
    pad_hyp env n (p + z) -> env n (p + z)%N oA = row_mx X 0 ->
    Q^T *m Q = 1%:M -> env n (p + z)%N oB = env n (p + z)%N oA *m Q -> L *m X = 1%:M ->
    usubmx (eval_mx env (pad_coef (p + z)))^T = usubmx Q.
Proof. exact: pad_recovers_block. Qed.
Print Assumptions C18_recovers_rotation_block.

(* projector mode: coef_^T =: W is a partial isometry, W^T W and W W^T are the orthogonal
   projectors onto the reduced target / feature spaces *)
Theorem C18_partial_isometry :
  forall (F : rcfType) (n p t r : nat) (env : env_mx F), proj_hyp env n p t r ->
    let W := (eval_mx env (proj_coef p t r))^T in
    [/\ W *m W^T *m W = W, W^T *m W = env t r oVc *m (env t r oVc)^T
      & W *m W^T = env p r oUc *m (env p r oUc)^T].
Proof. exact: proj_partial_isometry. Qed.
Print Assumptions C18_partial_isometry.

(* projector mode: predictions are never longer than their inputs (any rows Z), with equality
   on the range of the linear fit *)
Theorem C18_norm_nonincreasing :
  forall (F : rcfType) (n p t r : nat) (env : env_mx F), proj_hyp env n p t r ->
    forall m (Z : 'M[F]_(m, p)), fn2 (Z *m (eval_mx env (proj_coef p t r))^T) <= fn2 Z.
Proof.
  move=> F n p t r env /proj_hyp_svd[UcUc VcVc UiUi ViVi _] m Z.
  by rewrite proj_coefE; apply: projW0_norm_le => //; exact: procR_orthl.
Qed.
Print Assumptions C18_norm_nonincreasing.

(* ... with equality for inputs in the row space spanned by Uc (rows Z Uc^T) *)
Theorem C18_norm_on_range :
  forall (F : rcfType) (n p t r : nat) (env : env_mx F), proj_hyp env n p t r ->
    forall m (Z : 'M[F]_(m, r)),
      fn2 (Z *m (env p r oUc)^T *m (eval_mx env (proj_coef p t r))^T) = fn2 (Z *m (env p r oUc)^T).
Proof. exact: proj_norm_on_range. Qed.
Print Assumptions C18_norm_on_range.

(* projector mode: the training residual |y - X coef_^T| is no larger than |y - X Uc Omega Vc^T|
   for EVERY rotation Omega between the reduced spaces *)
Theorem C18_projector_optimal :
  forall (F : rcfType) (n p t r : nat) (env : env_mx F), proj_hyp env n p t r ->
    forall Om : 'M[F]_r, Om^T *m Om = 1%:M ->
      val11 env (resid_prog n p t (MVar (m:=n) (n:=p) oX) (MVar (m:=n) (n:=t) oY) (proj_W p t r))
      <= val11 (env_set env oW0 Om)
           (resid_prog n p t (MVar (m:=n) (n:=p) oX) (MVar (m:=n) (n:=t) oY)
                       (proj_of p t r (MVar (m:=r) (n:=r) oW0))).
Proof.
  move=> F n p t r env /proj_hyp_svd[UcUc VcVc UiUi ViVi [HM Hs]] Om OO.
  rewrite !resid_progE /= env_set_same !env_set_other //.
  exact: (projW_optimal VcVc UiUi ViVi HM Hs OO).
Qed.
Print Assumptions C18_projector_optimal.

(* projector mode: if y = X Q' where Q' = Uc Vc^T is a (partial) rotation between the reduced
   spaces and X Uc has full column rank, the fit recovers Q' and the residual vanishes - for
   n_features <, =, > n_targets *)
Theorem C18_projector_recovers :
  forall (F : rcfType) (n p t r : nat) (env : env_mx F), proj_hyp env n p t r ->
    forall L : 'M[F]_(r, n),
      env n t oY = env n p oX *m (env p r oUc *m (env t r oVc)^T) ->
      L *m (env n p oX *m env p r oUc) = 1%:M ->
      (eval_mx env (proj_coef p t r))^T = env p r oUc *m (env t r oVc)^T
      /\ env n t oY - env n p oX *m (eval_mx env (proj_coef p t r))^T = 0.
Proof. exact: proj_recovers. Qed.
Print Assumptions C18_projector_recovers.

(* predict pads / multiplies consistently *)
Theorem C18_predict :
  forall (F : rcfType) (env : env_mx F) nn q p t r,
    eval_mx env (pad_predict nn q) = env nn q oXn *m (eval_mx env (pad_coef q))^T
    /\ eval_mx env (proj_predict nn p t r) = env nn p oXn *m (eval_mx env (proj_coef p t r))^T.
Proof. by []. Qed.
Print Assumptions C18_predict.

(* non-vacuity: over every real closed field an environment meets both sets of hypotheses
   (all matrices the 2 x 2 identity, singular values 1) *)
Example C18_nonvacuous :
  forall F : rcfType, exists env : env_mx F, pad_hyp env 2 2 /\ proj_hyp env 2 2 2 2.
Proof.
  move=> F.
  exists (fun m n x => if x \in [:: oSp; oSi] then inj_mx (const_mx 1 : 'cV[F]_2) m n
                       else inj_mx (1%:M : 'M[F]_2) m n).
  have D : diag_mx (const_mx 1 : 'cV[F]_2)^T = 1%:M by rewrite trmx_const diag_const_mx.
  split; split; rewrite /= ?inj_mxE ?D ?trmx1 ?mulmx1 ?subrr //; try by move=> i; rewrite mxE ler01.
  by split; [rewrite trmx1 subrr | move=> i; rewrite mxE ler01].
Qed.

(* projector mode tied to the underlying linear fit *)
(* [lin_recon_prog p t r] = C - Uc diag(sc) Vc^T with C = env oC the coefficients of the linear
   estimator (p x t): the hint hypothesis the correspondence check evaluates for every case. *)

(* W W^T and W^T W fix the column / row space of the linear coefficients ... *)
Theorem C18_projectors_fix_linear_range :
  forall (F : rcfType) (n p t r : nat) (env : env_mx F), proj_hyp env n p t r ->
    eval_mx env (lin_recon_prog p t r) = 0 ->
    let W := (eval_mx env (proj_coef p t r))^T in
    W *m W^T *m env p t oC = env p t oC /\ env p t oC *m (W^T *m W) = env p t oC.
Proof. exact: proj_fixes_linear_range. Qed.
Print Assumptions C18_projectors_fix_linear_range.

(* ... and coef_^T is an ISOMETRY on the range of the underlying linear fit: inputs that are
   combinations  z C^T  of the linear coefficient vectors keep their norm *)
Theorem C18_isometry_on_linear_range :
  forall (F : rcfType) (n p t r : nat) (env : env_mx F), proj_hyp env n p t r ->
    eval_mx env (lin_recon_prog p t r) = 0 ->
    forall m (Z : 'M[F]_(m, t)),
      fn2 (Z *m (env p t oC)^T *m (eval_mx env (proj_coef p t r))^T) = fn2 (Z *m (env p t oC)^T).
Proof. exact: proj_isometry_on_linear_range. Qed.
Print Assumptions C18_isometry_on_linear_range.

(* recovery WITHOUT assuming anything about Uc, Vc beyond the SVD hypotheses: the linear estimator
   is least squares ([normal_eq_prog n p t J] = (J X)^T (J X) C - (J X)^T (J y) = 0; J = [MId n]:
   no intercept, J = [center_prog n]: LinearRegression() with intercept), X and J X have full column
   rank (left inverses L, Lz), y = X Q with Q a partial isometry - orthonormal columns
   (n_features >= n_targets) or orthonormal rows (n_features <= n_targets).  Then coef_^T = Q and
   the training residual vanishes. *)
Theorem C18_projector_recovers_least_squares :
  forall (F : rcfType) (n p t r : nat) (env : env_mx F), proj_hyp env n p t r ->
    eval_mx env (lin_recon_prog p t r) = 0 ->
    forall (J : mexp n n) (Q : 'M[F]_(p, t)) (L Lz : 'M[F]_(p, n)),
      eval_mx env (normal_eq_prog n p t J) = 0 ->
      (forall i, 0 <= env r 1%N oSc i ord0) ->
      L *m env n p oX = 1%:M -> Lz *m (eval_mx env J *m env n p oX) = 1%:M ->
      env n t oY = env n p oX *m Q -> Q^T *m Q = 1%:M \/ Q *m Q^T = 1%:M ->
      (eval_mx env (proj_coef p t r))^T = Q
      /\ env n t oY - env n p oX *m (eval_mx env (proj_coef p t r))^T = 0.
Proof. exact: proj_recovers_ols. Qed.
Print Assumptions C18_projector_recovers_least_squares.

(* padded mode with the zero padding of predict inside the statement (n_features = p < p + z):
   predict(Z) = [Z 0] coef_^T has exactly the norm of Z *)
Theorem C18_padded_predict_norm :
  forall (F : rcfType) (n p z : nat) (env : env_mx F), pad_hyp env n (p + z) ->
    forall m (Z : 'M[F]_(m, p)),
      fn2 (row_mx Z (0 : 'M[F]_(m, z)) *m (eval_mx env (pad_coef (p + z)))^T) = fn2 Z.
Proof. exact: pad_predict_norm. Qed.
Print Assumptions C18_padded_predict_norm.

(* non-vacuity of the hypotheses of the three projector theorems (2 x 2 identities, C = Q = 1,
   singular values 1, J = identity) *)
Example C18_ext_nonvacuous :
  forall F : rcfType, exists env : env_mx F,
    [/\ proj_hyp env 2 2 2 2, eval_mx env (lin_recon_prog 2 2 2) = 0,
        eval_mx env (normal_eq_prog 2 2 2 (MId 2%N)) = 0 & env 2%N 2%N oY = env 2%N 2%N oX *m 1%:M].
Proof.
  move=> F.
  exists (fun m n x => if x \in [:: oSp; oSi; oSc] then inj_mx (const_mx 1 : 'cV[F]_2) m n
                       else inj_mx (1%:M : 'M[F]_2) m n).
  have D : diag_mx (const_mx 1 : 'cV[F]_2)^T = 1%:M by rewrite trmx_const diag_const_mx.
  split; last by rewrite /= !inj_mxE mulmx1.
  - split; rewrite /= ?inj_mxE ?D ?trmx1 ?mulmx1 ?subrr //.
    by split; [rewrite trmx1 subrr | move=> i; rewrite mxE ler01].
  - by rewrite /= !inj_mxE D trmx1 !mulmx1 subrr.
  - by rewrite /= !inj_mxE !mul1mx trmx1 !mulmx1 subrr.
Qed.

(* the state machine over histories of calls (Model/OrthRegHist.v) *)
Local Close Scope ring_scope.
(* For EVERY choice [rt] of the numeric routines (validation, linear estimator, the two solvers,
   predict), every initial world (heap of user estimator objects, regression objects holding them by
   reference) and every history [h] of calls (fit / assignment of use_orthogonal_projector /
   assignment of linear_estimator / the user fitting one of his estimators / predict). *)

(* no call on a regression object ever writes an estimator object of the user (it is cloned) *)
Theorem C18_user_estimators_never_written :
  forall (M P H E R : Type) (rt : routines M P H E R) (h : list (op M)) (w : world P H),
    List.forallb (fun a => negb (is_user_fit M a)) h = true ->
    w_heap P H (mrun rt h w) = w_heap P H w.
Proof. by move=> M P H E R rt h w; apply: run_heap_frame. Qed.
Print Assumptions C18_user_estimators_never_written.

(* refit = fresh fit: after ANY history, a fit has the outcome and leaves the fitted attributes
   (coef_, and max_components_ in padded mode) of the same call in the world where nothing was ever
   fitted - neither the regression objects nor the user's estimator objects *)
Theorem C18_refit_is_fresh_fit :
  forall (M P H E R : Type) (rt : routines M P H E R) (h : list (op M)) (w : world P H) (o : nat) (X y : M),
    let w' := mrun rt h w in
    snd (mstep rt (OFit M o X y) w') = snd (mstep rt (OFit M o X y) (reset P H w'))
    /\ (snd (mstep rt (OFit M o X y) w') = OutOk E R ->
        option_map (fitted_view P) (List.nth_error (w_objs P H (fst (mstep rt (OFit M o X y) w'))) o)
        = option_map (fitted_view P) (List.nth_error (w_objs P H (fst (mstep rt (OFit M o X y) (reset P H w')))) o)).
Proof. by move=> M P H E R rt h w o X y; apply: fit_fresh. Qed.
Print Assumptions C18_refit_is_fresh_fit.

(* ... explicitly: coef_ = fit_value (mode in force) (hyper-parameters the referenced estimator had
   in the INITIAL heap; None = LinearRegression()) X y,  max_components_ = pad_q X y in padded mode *)
Theorem C18_fit_after_history :
  forall (M P H E R : Type) (rt : routines M P H E R) (h : list (op M)) (w : world P H) (o : nat) (X y : M)
         (ob : obj P) (hy : option H),
    List.nth_error (w_objs P H (mrun rt h w)) o = Some ob ->
    r_fit_check rt (o_proj P ob) X y = None ->
    (if o_proj P ob then resolve_lin P H (w_heap P H w) (o_lin P ob) else Some None) = Some hy ->
    snd (mstep rt (OFit M o X y) (mrun rt h w)) = OutOk E R
    /\ exists ob', List.nth_error (w_objs P H (fst (mstep rt (OFit M o X y) (mrun rt h w)))) o = Some ob'
         /\ o_coef P ob' = Some (mfit_value rt (o_proj P ob) hy X y)
         /\ o_proj P ob' = o_proj P ob /\ o_lin P ob' = o_lin P ob
         /\ (o_proj P ob = false -> o_maxc P ob' = Some (r_pad_q rt X y)).
Proof. by move=> M P H E R rt h w o X y ob hy; apply: fit_after_history. Qed.
Print Assumptions C18_fit_after_history.

(* a rejected fit (check_X_y, 1-D y in padded mode) leaves every object as it was *)
Theorem C18_rejected_fit_keeps_state :
  forall (M P H E R : Type) (rt : routines M P H E R) (w : world P H) (o : nat) (X y : M) (e : E),
    snd (mstep rt (OFit M o X y) w) = OutErr E R e ->
    w_objs P H (fst (mstep rt (OFit M o X y) w)) = w_objs P H w
    /\ w_heap P H (fst (mstep rt (OFit M o X y) w)) = w_heap P H w.
Proof. by move=> M P H E R rt w o X y e; apply: rejected_fit_keeps_state. Qed.
Print Assumptions C18_rejected_fit_keeps_state.

(* invariant: started on objects without coef_, EVERY coef_ observable at any time of any history is
   the fresh-fit value of one accepted fit call of that history on that very object, with
   hyper-parameters of the initial heap - so all theorems above about one fit apply to it *)
Theorem C18_coef_provenance :
  forall (M P H E R : Type) (rt : routines M P H E R) (h : list (op M)) (w : world P H) (o : nat)
         (ob' : obj P) (c : P),
    (forall ob0, List.In ob0 (w_objs P H w) -> o_coef P ob0 = None) ->
    List.nth_error (w_objs P H (mrun rt h w)) o = Some ob' -> o_coef P ob' = Some c ->
    mprov rt (List.map (e_hyper P H) (w_heap P H w)) h o c.
Proof. by move=> M P H E R rt h w o ob' c; apply: coef_provenance. Qed.
Print Assumptions C18_coef_provenance.

(* layer-D instance (shapes; the one run against the implementation): after an accepted fit predict
   accepts, in padded mode, every finite non-empty array with 1 <= c <= max(p, t) columns (zero
   padding) and returns max(p, t) columns, a wider one is rejected; in projector mode exactly
   n_features columns are accepted and n_targets (1 for a 1-D y) are returned - for all sizes *)
Theorem C18_predict_shape_after_fit :
  forall (w : dworld) (o : nat) (ob : dobj) (X y Xn : dmat) (c : nat),
    List.nth_error (w_objs _ _ w) o = Some ob ->
    snd (d_step (dFit o X y) w) = dOk ->
    d_cols Xn = Some c -> c <> 0%N -> d_fin Xn = true -> d_rows Xn <> 0%N ->
    snd (d_step (dPredict o Xn) (fst (d_step (dFit o X y) w)))
    = dPred (if o_proj _ ob
             then (if Nat.eqb c (d_ncols X) then DShape (d_rows Xn) (d_ncols y) else DErr EValue)
             else (if Nat.ltb (Nat.max (d_ncols X) (d_ncols y)) c then DErr EValue
                   else DShape (d_rows Xn) (Nat.max (d_ncols X) (d_ncols y)))).
Proof. exact: d_predict_after_fit. Qed.
Print Assumptions C18_predict_shape_after_fit.

(* non-vacuity: a concrete history on the layer-D machine - the user pre-fits his estimator on data 7,
   the regression (projector mode, holding that estimator) is fitted on data 0 (4 x 3 -> 2 targets),
   switched to padded mode, a 1-D target is rejected with IndexError and changes nothing, it is
   refitted on data 2 (5 x 2 -> 3 targets): coef_ is 3 x 3 from data 2 alone, max_components_ = 3,
   the user's estimator still carries his own fit on data 7; predict pads a 1-column input *)
Example C18_history_nonvacuous :
  let w0 := dWorld [:: dEst 1 None] [:: dObj true (Some 0%N) None None] in
  let h := [:: dUserFit 0 (mk_dmat 6 (Some 3%N) true 7) (mk_dmat 6 (Some 2%N) true 7);
            dFit 0 (mk_dmat 4 (Some 3%N) true 0) (mk_dmat 4 (Some 2%N) true 0);
            dSetProj 0 false;
            dFit 0 (mk_dmat 4 (Some 3%N) true 1) (mk_dmat 4 None true 1);
            dFit 0 (mk_dmat 5 (Some 2%N) true 2) (mk_dmat 5 (Some 3%N) true 2);
            dPredict 0 (mk_dmat 9 (Some 1%N) true 0)] in
  List.map fst (d_trace h w0)
  = [:: dOk; dOk; dOk; dErr EIndex; dOk; dPred (DShape 9 3)]
  /\ d_run h w0 = dWorld [:: dEst 1 (Some (mk_dcoef 2 3 true (Some 1%N) 7 7))]
                         [:: dObj false (Some 0%N) (Some (mk_dcoef 3 3 false None 2 2)) (Some 3%N)]
  /\ List.nth_error (List.map snd (d_trace h w0)) 1
     = Some (dWorld [:: dEst 1 (Some (mk_dcoef 2 3 true (Some 1%N) 7 7))]
                    [:: dObj true (Some 0%N) (Some (mk_dcoef 2 3 true (Some 1%N) 0 0)) None]).
Proof. by vm_compute. Qed.
