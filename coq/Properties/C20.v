(* C20 — prediction rigidities (LPR, CPR, LCPR) follow their closed form and scaling laws.
   The statements, each proved by a lemma of Proofs/RigidityP.v, Proofs/RigidityExtP.v (algebra,
   over an arbitrary real closed field F and all shapes) or Proofs/RigidityListP.v (list
   bookkeeping), or by instantiating the one-row lemmas of Proofs/RigidityP.v ([den_eq0],
   [den_gt0], ...) at the three rows of [lprE], [lcprE], [cprE].

   Model: Model/Rigidity.v.  The numeric routines are the mexp programs
     lpr_prog d N Nt, lcpr_prog d N Nt, cpr_prog d N Nt St   (column of rigidities)
   over an environment [env] holding (accessors e_Xtr, e_Mtr, ...):
     e_Xtr  N x d   stacked training environments        e_Mtr  S x N   0/1 membership (train)
     e_Xte  Nt x d  stacked test environments            e_Mte  St x Nt 0/1 membership (test)
     e_alpha        regulariser                          e_Xinv d x d   ORACLE (np.linalg.pinv)
     e_mask 1 x d   0/1 mask of the current component
   [rig_hyp env d N S] is the oracle hypothesis  (XX + alpha I) * Xinv = I  evaluated by the
   program hyp_prog.  Notation of the specifications (Proofs/RigidityP.v):
     sf2 X        = sum_f mean_a X[a,f]^2 (squared global scale factor), isf X = 1/sqrt(sf2 X)
     avg M        = row-normalised membership matrix (row s of avg M * X is a structure mean)
     Xstruc .. env = isf Xtr *: (avg Mtr *m Xtr)     (scaled per-structure means, S x d)
     reg Z a      = Z^T Z + a I,     qf P x = x P x^T,     maskrow m x = x .* m
     den N env z  = qf Xinv (isf Xtr *: z)   (the denominator of a rigidity at the row z)
     @x_env F d N Nt env i = isf Xtr *: row i Xte   (so  den N env (row i Xte) = qf Xinv (x_env .. i)),
     @x_struc F d N Nt St env s = isf Xtr *: row s (avg Mte *m Xte). *)
From mathcomp Require Import all_ssreflect all_algebra.
From Verif Require Import MExp MExpMx Rigidity RigidityListP RigidityP RigidityExt RigidityExtP.
Import GRing.Theory Num.Theory.
Close Scope float_scope.
Local Open Scope ring_scope.

(* every entry is 1 / (x (XX + alpha I)^-1 x^T) with the stated x: the oracle hypothesis
   determines Xinv to be THE inverse of the regularised covariance *)
Theorem C20_closed_form :
  forall (F : rcfType) (d N S Nt St : nat) (env : env_mx F),
    rig_hyp env d N S ->
    let A := reg (Xstruc d N S env) (e_alpha env) in
    [/\ forall i, (eval_mx env (lpr_prog d N Nt)) i ord0
                  = (qf (invmx A) (@x_env F d N Nt env i))^-1,
        forall i, (eval_mx env (lcpr_prog d N Nt)) i ord0
                  = (qf (invmx A) (maskrow (e_mask env d) (@x_env F d N Nt env i)))^-1
      & forall s, (eval_mx env (cpr_prog d N Nt St)) s ord0
                  = (qf (invmx A) (maskrow (e_mask env d) (@x_struc F d N Nt St env s)))^-1].
Proof.
  move=> F d N S Nt St env /hypAP AP A; rewrite -(inv_is_invmx AP).
  by split=> i; [rewrite lprE | rewrite lcprE | rewrite cprE]; rewrite /den -?maskrowZ.
Qed.
Print Assumptions C20_closed_form.

(* ... where, for the membership matrix of a list of structure lengths, the averaged rows
   are the per-structure means of the rows owned by the structure *)
Theorem C20_struct_means :
  forall (F : rcfType) (lens : seq nat) (d : nat) (X : 'M[F]_(lsum lens, d))
         (s : 'I_(size lens)) (f : 'I_d),
    (avg (member_mx F lens) *m X) s f
    = (\sum_(a | mem_of s a) X a f) / (List.nth s lens 0%N)%:R.
Proof. exact rig_struct_means. Qed.
Print Assumptions C20_struct_means.

(* structure s owns exactly the stacked rows offset(s) <= a < offset(s) + lens[s] *)
Theorem C20_membership :
  forall (lens : list nat) (s a : nat), (s < length lens)%coq_nat -> (a < lsum lens)%coq_nat ->
    List.nth a (List.nth s (member_rows lens) nil) false
    = Nat.leb (lsum (List.firstn s lens)) a && Nat.ltb a (lsum (List.firstn s lens) + List.nth s lens 0%N)%coq_nat.
Proof. by move=> lens s a Hs _; apply: member_rows_spec. Qed.
Print Assumptions C20_membership.

(* strictly positive: alpha > 0, training data not identically zero, the (masked) row non-zero *)
Theorem C20_positive :
  forall (F : rcfType) (d N S Nt St : nat) (env : env_mx F),
    0 < e_alpha env -> rig_hyp env d N S -> 0 < sf2 (e_Xtr env N d) ->
    [/\ forall i, row i (e_Xte env Nt d) != 0 -> 0 < (eval_mx env (lpr_prog d N Nt)) i ord0,
        forall i, maskrow (e_mask env d) (row i (e_Xte env Nt d)) != 0 ->
                  0 < (eval_mx env (lcpr_prog d N Nt)) i ord0
      & forall s, maskrow (e_mask env d) (row s (avg (e_Mte env St Nt) *m e_Xte env Nt d)) != 0 ->
                  0 < (eval_mx env (cpr_prog d N Nt St)) s ord0].
Proof.
  move=> F d N S Nt St env a0 H s0.
  by split=> i z0; [rewrite lprE | rewrite lcprE | rewrite cprE]; rewrite invr_gt0; apply: den_gt0 a0 H s0 _ z0.
Qed.
Print Assumptions C20_positive.

(* invariant under a common rescaling X -> cX (c <> 0, either sign) of all train and test
   features; each side uses its own oracle value *)
Theorem C20_scale_invariant :
  forall (F : rcfType) (d N S Nt St : nat) (c : F) (env env' : env_mx F),
    c != 0 -> rescaled d N S Nt St c env env' -> rig_hyp env d N S -> rig_hyp env' d N S ->
    [/\ eval_mx env' (lpr_prog d N Nt) = eval_mx env (lpr_prog d N Nt),
        eval_mx env' (lcpr_prog d N Nt) = eval_mx env (lcpr_prog d N Nt)
      & eval_mx env' (cpr_prog d N Nt St) = eval_mx env (cpr_prog d N Nt St)].
Proof. exact rig_scale_invariant. Qed.
Print Assumptions C20_scale_invariant.

(* non-decreasing in alpha: same data, 0 < alpha <= alpha', each with its own oracle value *)
Theorem C20_monotone_alpha :
  forall (F : rcfType) (d N S Nt St : nat) (env env' : env_mx F),
    same_data d N S Nt St env env' -> 0 < e_alpha env -> e_alpha env <= e_alpha env' ->
    rig_hyp env d N S -> rig_hyp env' d N S -> 0 < sf2 (e_Xtr env N d) ->
    [/\ forall i, row i (e_Xte env Nt d) != 0 ->
                  (eval_mx env (lpr_prog d N Nt)) i ord0 <= (eval_mx env' (lpr_prog d N Nt)) i ord0,
        forall i, maskrow (e_mask env d) (row i (e_Xte env Nt d)) != 0 ->
                  (eval_mx env (lcpr_prog d N Nt)) i ord0 <= (eval_mx env' (lcpr_prog d N Nt)) i ord0
      & forall s, maskrow (e_mask env d) (row s (avg (e_Mte env St Nt) *m e_Xte env Nt d)) != 0 ->
                  (eval_mx env (cpr_prog d N Nt St)) s ord0 <= (eval_mx env' (cpr_prog d N Nt St)) s ord0].
Proof. exact rig_monotone_alpha. Qed.
Print Assumptions C20_monotone_alpha.

(* the returned lists, concatenated, are the per-environment values in input order, and the
   list lengths are the structures' environment counts (any element type: floats, field
   elements, rows of LCPR) *)
Theorem C20_order_and_split :
  forall (A : Type) (lens : list nat) (l : list A),
    lsum lens = length l ->
    List.concat (split_lens lens l) = l /\ List.map (@length A) (split_lens lens l) = lens.
Proof. exact split_lens_order_and_split. Qed.
Print Assumptions C20_order_and_split.

(* ... position j of the i-th returned list is environment offset(i)+j *)
Theorem C20_split_entry :
  forall (A : Type) (dflt : A) (lens : list nat) (l : list A) (i j : nat),
    lsum lens = length l -> (i < length lens)%coq_nat -> (j < List.nth i lens 0%N)%coq_nat ->
    List.nth j (List.nth i (split_lens lens l) nil) dflt
    = List.nth (lsum (List.firstn i lens) + j)%coq_nat l dflt.
Proof. exact split_lens_nth. Qed.
Print Assumptions C20_split_entry.

(* the component masks built from cumulative comp_dims partition the feature indices *)
Theorem C20_masks_partition :
  forall (dims : list nat) (t : nat), (t < lsum dims)%coq_nat ->
    exists ci, (ci < length dims)%coq_nat /\ List.nth t (comp_mask dims ci) false = true /\
      forall cj, (cj < length dims)%coq_nat -> List.nth t (comp_mask dims cj) false = true -> cj = ci.
Proof. exact comp_mask_partition. Qed.
Print Assumptions C20_masks_partition.

(* LCPR with a single component (comp_dims = [d]) equals LPR *)
Theorem C20_lcpr_single_component :
  forall (F : rcfType) (d N Nt : nat) (env : env_mx F),
    e_mask env d = bvec_mx F d (comp_mask [:: d] 0) ->
    eval_mx env (lcpr_prog d N Nt) = eval_mx env (lpr_prog d N Nt).
Proof.
  move=> F d N Nt env Em; apply/colP => i.
  by rewrite lcprE lprE Em bvec_single maskrow_ones.
Qed.
Print Assumptions C20_lcpr_single_component.

(* CPR of a one-environment structure equals the LCPR of that environment (every component) *)
Theorem C20_cpr_single_environment :
  forall (F : rcfType) (d N : nat) (lte : seq nat) (env : env_mx F)
         (s : 'I_(size lte)) (a : 'I_(lsum lte)),
    e_Mte env (size lte) (lsum lte) = member_mx F lte ->
    List.nth s lte 0%N = 1%N -> (a : nat) = lsum (List.firstn s lte) ->
    (eval_mx env (cpr_prog d N (lsum lte) (size lte))) s ord0
    = (eval_mx env (lcpr_prog d N (lsum lte))) a ord0.
Proof.
  move=> F d N lte env s a EM l1 aE.
  by rewrite cprE lcprE EM (avg_single _ l1 aE).
Qed.
Print Assumptions C20_cpr_single_environment.

(* the oracle hypothesis is satisfiable for every data set and every alpha > 0 *)
Theorem C20_oracle_exists :
  forall (F : rcfType) (d k : nat) (Z : 'M[F]_(k, d)) (a : F),
    0 < a -> exists P : 'M[F]_d, reg Z a *m P = 1%:M.
Proof. by move=> F d k Z a a0; exists (invmx (reg Z a)); apply/mulmxV/reg_unit. Qed.
Print Assumptions C20_oracle_exists.

(* non-vacuity: a concrete environment over every real closed field (X_train = [[1]], alpha = 1,
   Xinv = 1/2) meets the oracle hypothesis, alpha > 0, non-zero training data and a non-zero
   test row, and has LPR = 2 *)
Example C20_nonvacuous :
  forall F : rcfType,
    [/\ rig_hyp (tiny_env F) 1 1 1, 0 < e_alpha (tiny_env F), 0 < sf2 (e_Xtr (tiny_env F) 1 1),
        row ord0 (e_Xte (tiny_env F) 1 1) != 0
      & (eval_mx (tiny_env F) (lpr_prog 1 1 1)) ord0 ord0 = 2%:R].
Proof. exact tiny_env_ok. Qed.

(* The rank_diff clause and the zero-denominator characterisation.
   Model/RigidityExt.v: [rank_of_sv_g ops dim sv] is numpy's matrix_rank rule
     #{ s in sv | s > max(sv) * dim * eps }   written once over a record of operations;
   [float_ops] is its binary64 instance (eps = 2^-52), [F_ops e] its instance over a real
   closed field with eps = e.  The SVD that matrix_rank computes is an oracle held in the
   variables e_U (d x d), e_S (d x 1), e_Vt (d x d); [svd_hyp env d N S] says that the three
   residual programs  U diag(s) Vt - Xprime,  U^T U - I,  Vt Vt^T - I  evaluate to 0
   (the run evaluates the same programs in binary64 on the model's Xprime).
   [svl env d] is the list of the entries of e_S. *)

(* (Rigidity.rank_diff_model, evaluated by rank_case_ok, is [rank_diff_g float_ops] by
   conversion: RigidityExtP.rank_diff_generic; rank_case_ok2 evaluates [rank_diff_g float_ops]
   itself) *)

(* rank of a decomposition with invertible outer factors = number of non-zero values *)
Theorem C20_rank_of_decomposition :
  forall (F : rcfType) (d : nat) (U V : 'M[F]_d) (s : 'rV[F]_d),
    U \in unitmx -> V \in unitmx ->
    \rank (U *m diag_mx s *m V) = #|[pred i | s ord0 i != 0]|.
Proof. exact rank_svd. Qed.
Print Assumptions C20_rank_of_decomposition.

(* the reported rank difference is the feature dimension minus the rank of the regularised
   covariance, whenever the threshold separates the non-zero singular values from 0 *)
Theorem C20_rank_diff :
  forall (F : rcfType) (d N S : nat) (e : F) (env : env_mx F),
    svd_hyp env d N S -> 0 <= e ->
    (forall i, e_S env d i ord0 != 0 -> sv_tol (F_ops e) d (svl env d) < e_S env d i ord0) ->
    rank_diff_g (F_ops e) d (svl env d)
    = (d - \rank (reg (Xstruc d N S env) (e_alpha env)))%N.
Proof. exact rig_rank_diff. Qed.
Print Assumptions C20_rank_diff.

(* ... and in every case it is the dimension minus the rank of the decomposition with the
   singular values at or below the threshold set to zero *)
Theorem C20_rank_diff_truncated :
  forall (F : rcfType) (d N S : nat) (e : F) (env : env_mx F),
    svd_hyp env d N S -> 0 <= e ->
    rank_diff_g (F_ops e) d (svl env d)
    = (d - \rank (e_U env d *m diag_mx (trunc_sv d e env) *m e_Vt env d))%N.
Proof. exact rig_rank_diff_trunc. Qed.
Print Assumptions C20_rank_diff_truncated.

(* alpha > 0: the regularised covariance has full rank (exact difference 0); the reported
   value counts the singular values at or below the threshold, and is 0 when the threshold
   separates *)
Theorem C20_rank_diff_alpha_pos :
  forall (F : rcfType) (d N S : nat) (e : F) (env : env_mx F),
    0 < e_alpha env ->
    [/\ \rank (reg (Xstruc d N S env) (e_alpha env)) = d,
        rank_diff_g (F_ops e) d (svl env d)
        = #|[pred i | e_S env d i ord0 <= sv_tol (F_ops e) d (svl env d)]|
      & svd_hyp env d N S -> 0 <= e ->
        (forall i, e_S env d i ord0 != 0 -> sv_tol (F_ops e) d (svl env d) < e_S env d i ord0) ->
        rank_diff_g (F_ops e) d (svl env d) = 0%N].
Proof.
  move=> F d N S e env a0.
  have rk : \rank (reg (Xstruc d N S env) (e_alpha env)) = d by apply: rank_reg_pos.
  split=> // [|H e0 sep]; last by rewrite (rig_rank_diff H e0 sep) rk subnn.
  by have := rank_diff_count e (svl env d); rewrite size_svl count_codom.
Qed.
Print Assumptions C20_rank_diff_alpha_pos.

(* alpha = 0: the rank is that of the averaged, scaled training features (Gram matrix) *)
Theorem C20_rank_alpha_zero :
  forall (F : rcfType) (d N S : nat) (env : env_mx F),
    e_alpha env = 0 ->
    \rank (reg (Xstruc d N S env) (e_alpha env)) = \rank (Xstruc d N S env).
Proof. by move=> F d N S env ->; apply: rank_reg0. Qed.
Print Assumptions C20_rank_alpha_zero.

(* the rigidity programs are the entrywise reciprocals of the denominator programs, and
   (alpha > 0) a denominator is 0 exactly when the (masked) test row / structure mean is the
   zero row: then and only then the implementation returns 1/0 = +inf *)
Theorem C20_denominator_zero :
  forall (F : rcfType) (d N S Nt St : nat) (env : env_mx F),
    0 < e_alpha env -> rig_hyp env d N S -> 0 < sf2 (e_Xtr env N d) ->
    [/\ forall i, ((eval_mx env (lpr_den_prog d N Nt)) i ord0 == 0)
                  = (row i (e_Xte env Nt d) == 0),
        forall i, ((eval_mx env (lcpr_den_prog d N Nt)) i ord0 == 0)
                  = (maskrow (e_mask env d) (row i (e_Xte env Nt d)) == 0)
      & forall s, ((eval_mx env (cpr_den_prog d N Nt St)) s ord0 == 0)
                  = (maskrow (e_mask env d) (row s (avg (e_Mte env St Nt) *m e_Xte env Nt d)) == 0)].
Proof.
  move=> F d N S Nt St env a0 H s0.
  by split=> i; [rewrite lpr_denE | rewrite lcpr_denE | rewrite cpr_denE]; apply: den_eq0 a0 H s0 _.
Qed.
Print Assumptions C20_denominator_zero.

Theorem C20_programs_are_reciprocals :
  forall d N Nt St : nat,
    [/\ lpr_prog d N Nt = MMap Frecip t0 (lpr_den_prog d N Nt),
        lcpr_prog d N Nt = MMap Frecip t0 (lcpr_den_prog d N Nt)
      & cpr_prog d N Nt St = MMap Frecip t0 (cpr_den_prog d N Nt St)].
Proof. by []. Qed.
Print Assumptions C20_programs_are_reciprocals.

(* non-vacuity of the rank theorems: tiny_env_x with the decomposition 2 = 1 * 2 * 1 and
   eps = 1/2 (threshold 1 < 2) meets svd_hyp and the separation hypothesis; rank_diff = 0 *)
Example C20_nonvacuous_rank :
  forall F : rcfType,
    [/\ svd_hyp (tiny_env_x F) 1 1 1, 0 < e_alpha (tiny_env_x F),
        forall i, e_S (tiny_env_x F) 1 i ord0 != 0 ->
                  sv_tol (F_ops (2%:R^-1 : F)) 1 (svl (tiny_env_x F) 1) < e_S (tiny_env_x F) 1 i ord0
      & rank_diff_g (F_ops (2%:R^-1 : F)) 1 (svl (tiny_env_x F) 1) = 0%N].
Proof. exact tiny_env_x_ok. Qed.
