(* C12 — kernel centring and normalisation equal centring and scaling in feature space.
   The statements; each is a lemma of Proofs/KernelNormP.v, KernelCutP.v, KernelObjP.v or
   KernelHeapP.v, or follows from those in a few lines.

   Model: Model/KernelNorm.v (mexp programs of KernelNormalizer.fit/transform/fit_transform,
   the explicit feature route, SparseKernelCenterer.fit/transform; run on binary64 against
   /repo by the check) and Model/KernelNormMx.v (the same programs run by [eval_mx] over an
   arbitrary real closed field F):
     kn_fit_mx cfg K w            = (K_fit_rows_, K_fit_all_, scale_)   [scale_ a 1x1 matrix]
     kn_transform_mx cfg w st Kt  = transform of a k x n kernel with the fitted state
     kn_fit_transform_mx cfg K w  = the single-term program of fit_transform
     kf_transform_mx cfg w Phi Psi = the feature route: centre explicit features, Gram, scale
     sk_fit_mx cfg Knm w Kmm P    = (K_fit_rows_, scale_), P standing for pinv(Kmm, rcond)
     sk_transform_mx st Kt        = (Kt - K_fit_rows_) / scale_
   cfg = (with_center, with_trace, sample_weight given).  Vocabulary (Model/ScalerMx.v):
   wsum, wmean w A (row of weighted column means), rows_of k r (k copies of the row r);
   kn_effw cfg w = w, or all ones when no weights are given; kn_wok cfg w = these weights
   have a non-zero sum.  All theorems: any real closed field, any n, p, k, m, any such
   weights (non-negative or not), every flag combination unless a flag is a hypothesis.

   Model/KernelCut.v + KernelCutMx.v — the cut-off of np.linalg.pinv(Kmm, rcond) as a program:
     pc_P_mx t U v = the program [pc_P] on the spectral data Kmm = U diag(v) U^T with the
     cut-off t on |eigenvalue| (numpy: t = rcond * max|v|; [is_vmax x v]: x is that maximum);
   Model/KernelObj.v — both classes as objects with a history (attributes assigned / read by
     each method, rejection branches, set_params, re-fit), parametric in the numerics:
     kn_run / sk_run o ops = (final object, result of every call);
   Model/KernelHeap.v — the caller's arrays as a heap: kh_run o h ops, with in-place transform and
     caller writes between calls. *)
From Coq Require Import PrimFloat.
From mathcomp Require Import all_ssreflect all_algebra.
From Verif Require Import MExp MExpMx MxBox ScalerMx KernelNorm KernelNormMx KernelNormP.
From Verif Require Import ScalerP KernelCut KernelCutMx KernelCutP KernelObj KernelObjP KernelHeap KernelHeapP.
Set Implicit Arguments.
Unset Strict Implicit.
Unset Printing Implicit Defensive.
Import GRing.Theory Num.Theory.
Local Open Scope ring_scope.

(* For features Phi (training, n x p) and K = Phi Phi^T: the fitted scale_ is trace/n of the
   Gram matrix of the features centred by the weighted training mean mu (mu = 0 when
   centring is off; 1 when trace scaling is off), and transforming ANY test-train kernel
   Psi Phi^T (in particular the training kernel, Psi = Phi) gives the Gram matrix of the
   centred test and training features divided by that one scale. *)
Theorem C12_center_feature_space :
  forall (F : rcfType) (cfg : kn_cfg) (n : nat) (w : 'cV[F]_n),
    kn_wok cfg w ->
    forall (p : nat) (Phi : 'M[F]_(n, p)),
    let K := Phi *m Phi^T in
    let mu := if kn_center cfg then wmean (kn_effw cfg w) Phi else 0 in
    let st := kn_fit_mx cfg K w in
    st.2 = (if kn_trace cfg
            then (\tr ((Phi - rows_of n mu) *m (Phi - rows_of n mu)^T) / n%:R)%:M else 1%:M)
    /\ forall (k : nat) (Psi : 'M[F]_(k, p)),
         kn_transform_mx cfg w st (Psi *m Phi^T)
         = (st.2 ord0 ord0)^-1 *: ((Psi - rows_of k mu) *m (Phi - rows_of n mu)^T).
Proof. exact kn_center_feature_space. Qed.
Print Assumptions C12_center_feature_space.

(* the same in program form: the kernel-route programs on (Phi Phi^T, Psi Phi^T) and the
   feature-route program on (Phi, Psi) evaluate to the same matrix *)
Theorem C12_feature_route :
  forall (F : rcfType) (cfg : kn_cfg) (n p k : nat) (w : 'cV[F]_n)
         (Phi : 'M[F]_(n, p)) (Psi : 'M[F]_(k, p)),
    kn_wok cfg w ->
    kf_transform_mx cfg w Phi Psi
    = kn_transform_mx cfg w (kn_fit_mx cfg (Phi *m Phi^T) w) (Psi *m Phi^T).
Proof. exact kf_transform_eq. Qed.
Print Assumptions C12_feature_route.

(* trace scaling on: the transformed training kernel has trace n — for ANY square K
   (symmetric or not, Gram or not), weighted or not, centred or not *)
Theorem C12_trace_n :
  forall (F : rcfType) (cfg : kn_cfg) (n : nat) (w : 'cV[F]_n),
    kn_wok cfg w ->
    forall K : 'M[F]_(n, n), kn_trace cfg ->
    let st := kn_fit_mx cfg K w in
    st.2 ord0 ord0 != 0 -> \tr (kn_transform_mx cfg w st K) = n%:R.
Proof. exact kn_trace_n. Qed.
Print Assumptions C12_trace_n.

(* with_center=False switches off exactly the centring: no means are stored and transform
   only divides by scale_ = trace(K)/n (or 1) *)
Theorem C12_flags_no_center :
  forall (F : rcfType) (cfg : kn_cfg) (n : nat) (w : 'cV[F]_n),
    kn_wok cfg w ->
    forall K : 'M[F]_(n, n), ~~ kn_center cfg ->
    let st := kn_fit_mx cfg K w in
    [/\ st.1.1 = 0, st.1.2 = 0,
        st.2 = (if kn_trace cfg then (\tr K / n%:R)%:M else 1%:M)
      & forall (k : nat) (Kt : 'M[F]_(k, n)),
          kn_transform_mx cfg w st Kt = (st.2 ord0 ord0)^-1 *: Kt].
Proof.
  move=> F cfg n w ok K /negbTE nc st.
  rewrite /st (kn_fit_mxE _ ok) /= /scale_spec /all_spec /rows_spec nc.
  by split=> [//|//||k Kt]; rewrite ?(kn_transform_mxE ok) /= !(centered_mx_off _ _ nc).
Qed.
Print Assumptions C12_flags_no_center.

(* with_trace=False switches off exactly the scaling: same stored means, scale_ = 1, and
   the output is the with_trace=True output multiplied back by that scale *)
Theorem C12_flags_no_trace :
  forall (F : rcfType) (c h : bool) (n : nat) (w : 'cV[F]_n) (K : 'M[F]_(n, n)),
    let cfg1 := KnCfg c true h in
    let cfg0 := KnCfg c false h in
    kn_wok cfg1 w ->
    let st1 := kn_fit_mx cfg1 K w in
    let st0 := kn_fit_mx cfg0 K w in
    [/\ st0.1 = st1.1, st0.2 = 1%:M
      & st1.2 ord0 ord0 != 0 ->
        forall (k : nat) (Kt : 'M[F]_(k, n)),
          kn_transform_mx cfg0 w st0 Kt = st1.2 ord0 ord0 *: kn_transform_mx cfg1 w st1 Kt].
Proof.
  move=> F c h n w K cfg1 cfg0 ok1 st1 st0; have ok0 : kn_wok cfg0 w by [].
  rewrite /st0 /st1 (kn_fit_mxE _ ok0) (kn_fit_mxE _ ok1) /=; split=> [//|//|s0 k Kt].
  rewrite (kn_transform_mxE ok0) (kn_transform_mxE ok1) /= scalerA mulfV // scale1r.
  by rewrite /scale_spec /= scalar11 invr1 scale1r.
Qed.
Print Assumptions C12_flags_no_trace.

(* fit_transform (one program) equals fit followed by transform *)
Theorem C12_fit_transform :
  forall (F : rcfType) (cfg : kn_cfg) (n : nat) (w : 'cV[F]_n),
    kn_wok cfg w ->
    forall K : 'M[F]_(n, n),
      kn_fit_transform_mx cfg K w = kn_transform_mx cfg w (kn_fit_mx cfg K w) K.
Proof.
  move=> F cfg n w ok K.
  by rewrite (kn_fit_transform_mxE _ ok) (kn_transform_mxE ok) (kn_fit_mxE _ ok).
Qed.
Print Assumptions C12_fit_transform.

(* sparse variant, centring on: the weighted column means of the transformed training
   block vanish (any rectangular Knm, any Kmm, any P) *)
Theorem C12_sparse_column_means_zero :
  forall (F : rcfType) (cfg : kn_cfg) (n m : nat) (w : 'cV[F]_n)
         (Knm : 'M[F]_(n, m)) (Kmm P : 'M[F]_(m, m)),
    kn_wok cfg w -> kn_center cfg ->
    let st := sk_fit_mx cfg Knm w Kmm P in
    st.2 ord0 ord0 != 0 ->
    wmean (kn_effw cfg w) (sk_transform_mx st Knm) = 0.
Proof. move=> F cfg n m w Knm Kmm P ok ce st _; exact: sk_column_means_zero. Qed.
Print Assumptions C12_sparse_column_means_zero.

(* sparse variant, trace scaling on: the centred Nystrom kernel T P T^T of the transformed
   training block T has trace n, whenever the trace the scale was computed from is positive *)
Theorem C12_sparse_nystrom_trace_n :
  forall (F : rcfType) (cfg : kn_cfg) (n m : nat) (w : 'cV[F]_n)
         (Knm : 'M[F]_(n, m)) (Kmm P : 'M[F]_(m, m)),
    kn_wok cfg w -> kn_trace cfg ->
    let st := sk_fit_mx cfg Knm w Kmm P in
    0 < \tr ((Knm - rows_of n st.1) *m P *m (Knm - rows_of n st.1)^T) ->
    let T := sk_transform_mx st Knm in
    \tr (T *m P *m T^T) = n%:R.
Proof. exact sk_nystrom_trace_n. Qed.
Print Assumptions C12_sparse_nystrom_trace_n.

(* sparse variant in feature space, with the pseudo-inverse as an oracle: if Knm = Phi A^T,
   Kmm = A A^T (A = features of the active set) and P satisfies the four Penrose equations
   for Kmm, then Knm_centered = (centred features) A^T, the centred Nystrom kernel is the
   Gram matrix of the centred features projected by Pi = A^T P A, its trace is >= 0 (so the
   square root in scale_ is taken of a non-negative number) and scale_ is as stated *)
Theorem C12_sparse_feature_space :
  forall (F : rcfType) (cfg : kn_cfg) (n m p : nat) (w : 'cV[F]_n)
         (Phi : 'M[F]_(n, p)) (A : 'M[F]_(m, p)) (P : 'M[F]_(m, m)),
    kn_wok cfg w -> penrose (A *m A^T) P ->
    let mu := if kn_center cfg then wmean (kn_effw cfg w) Phi else 0 in
    let Pi := A^T *m P *m A in
    let st := sk_fit_mx cfg (Phi *m A^T) w (A *m A^T) P in
    let Kc := Phi *m A^T - rows_of n st.1 in
    [/\ Kc = (Phi - rows_of n mu) *m A^T,
        Kc *m P *m Kc^T = ((Phi - rows_of n mu) *m Pi) *m ((Phi - rows_of n mu) *m Pi)^T,
        0 <= \tr (Kc *m P *m Kc^T)
      & st.2 = if kn_trace cfg
               then (Num.sqrt (\tr (((Phi - rows_of n mu) *m Pi) *m ((Phi - rows_of n mu) *m Pi)^T)
                               / n%:R))%:M
               else 1%:M].
Proof. exact sk_feature_space. Qed.
Print Assumptions C12_sparse_feature_space.

(* ... where Pi is the orthogonal projector onto the span of the active features:
   idempotent, symmetric, and it fixes every active feature vector *)
Theorem C12_sparse_projector :
  forall (F : rcfType) (m p : nat) (A : 'M[F]_(m, p)) (P : 'M[F]_(m, m)),
    penrose (A *m A^T) P ->
    let Pi := A^T *m P *m A in
    [/\ Pi *m Pi = Pi, Pi^T = Pi & A *m Pi = A].
Proof.
  by move=> F m p A P pe; split; [exact: (Pi_idem pe) | exact: (Pi_sym pe) | exact: (Pi_fixes pe)].
Qed.
Print Assumptions C12_sparse_projector.

(* the Penrose equations determine the oracle uniquely (so the hypothesis pins down
   np.linalg.pinv); that the pseudo-inverse of a symmetric matrix is symmetric is
   KernelNormP.penrose_sym *)
Theorem C12_pinv_unique :
  forall (F : rcfType) (m : nat) (K P Q : 'M[F]_(m, m)),
    penrose K P -> penrose K Q -> P = Q.
Proof. exact penrose_unique. Qed.
Print Assumptions C12_pinv_unique.

(* non-vacuity: over every real closed field, features (0, 2) (n = 2, p = 1), unweighted,
   centring and trace scaling on: the weights are usable, scale_ = 1 (non-zero); the
   1 x 1 identity is its own pseudo-inverse; and with the active feature 1 the sparse
   trace hypothesis holds (the trace is 2 > 0) *)
Example C12_nonvacuous :
  forall F : rcfType,
    let cfg := KnCfg true true false in
    let Phi : 'M[F]_(2, 1) := \matrix_(i, j) (i : nat)%:R *+ 2 in
    let w : 'cV[F]_2 := 0 in
    [/\ kn_wok cfg w,
        (kn_fit_mx cfg (Phi *m Phi^T) w).2 = 1%:M,
        penrose (1%:M : 'M[F]_1) 1%:M
      & let st := sk_fit_mx cfg (Phi *m (1%:M : 'M[F]_1)^T) w 1%:M 1%:M in
        \tr ((Phi *m (1%:M)^T - rows_of 2 st.1) *m 1%:M *m (Phi *m (1%:M)^T - rows_of 2 st.1)^T)
        = 2%:R].
Proof. exact kn_nonvacuous. Qed.

(* the binary64 run of the same programs on the same data: K = Phi Phi^T = [[0,0],[0,4]] *)
Example C12_nonvacuous_float :
  let K := cons (cons 0%float (cons 0%float nil)) (cons (cons 0%float (cons 4%float nil)) nil) in
  st_scale (kn_fit_f (KnCfg true true false) 2 K nil) = cons (cons 1%float nil) nil
  /\ kn_fit_transform_f (KnCfg true true false) 2 K nil
     = cons (cons 1%float (cons (-1)%float nil)) (cons (cons (-1)%float (cons 1%float nil)) nil).
Proof. split; vm_compute; reflexivity. Qed.

(* the sparse class: flags and the test block *)

(* with_center=False (sparse): no means are stored, scale_ comes from the uncentred Nystrom
   trace, transform only divides by scale_ *)
Theorem C12_sparse_flags_no_center :
  forall (F : rcfType) (cfg : kn_cfg) (n m : nat) (w : 'cV[F]_n)
         (Knm : 'M[F]_(n, m)) (Kmm P : 'M[F]_(m, m)),
    kn_wok cfg w -> ~~ kn_center cfg ->
    let st := sk_fit_mx cfg Knm w Kmm P in
    [/\ st.1 = 0,
        st.2 = (if kn_trace cfg then (Num.sqrt (\tr (Knm *m P *m Knm^T) / n%:R))%:M else 1%:M)
      & forall k (Kt : 'M[F]_(k, m)), sk_transform_mx st Kt = (st.2 ord0 ord0)^-1 *: Kt].
Proof.
  move=> F cfg n m w Knm Kmm P ok /negbTE nc st.
  rewrite /st (sk_fit_mxE _ _ _ ok) /= /sk_scale_spec /sk_kc_spec /sk_rows_spec nc rows_of0 subr0.
  by split=> // k Kt; rewrite sk_transform_mxE /= rows_of0 subr0.
Qed.
Print Assumptions C12_sparse_flags_no_center.

(* with_trace=False (sparse): same stored means, scale_ = 1, output = with_trace output times
   its scale *)
Theorem C12_sparse_flags_no_trace :
  forall (F : rcfType) (c h : bool) (n m : nat) (w : 'cV[F]_n)
         (Knm : 'M[F]_(n, m)) (Kmm P : 'M[F]_(m, m)),
    let cfg1 := KnCfg c true h in
    let cfg0 := KnCfg c false h in
    kn_wok cfg1 w ->
    let st1 := sk_fit_mx cfg1 Knm w Kmm P in
    let st0 := sk_fit_mx cfg0 Knm w Kmm P in
    [/\ st0.1 = st1.1, st0.2 = 1%:M
      & st1.2 ord0 ord0 != 0 ->
        forall k (Kt : 'M[F]_(k, m)),
          sk_transform_mx st0 Kt = st1.2 ord0 ord0 *: sk_transform_mx st1 Kt].
Proof.
  move=> F c h n m w Knm Kmm P cfg1 cfg0 ok1 st1 st0; have ok0 : kn_wok cfg0 w by [].
  rewrite /st0 /st1 (sk_fit_mxE _ _ _ ok0) (sk_fit_mxE _ _ _ ok1) /=; split=> [//|//|s0 k Kt].
  rewrite !sk_transform_mxE /= scalerA mulfV // scale1r.
  by rewrite /sk_scale_spec /= scalar11 invr1 scale1r.
Qed.
Print Assumptions C12_sparse_flags_no_trace.

(* any (test) block is transformed with the weighted column means of the TRAINING block and
   the one common scale *)
Theorem C12_sparse_test_block :
  forall (F : rcfType) (cfg : kn_cfg) (n m : nat) (w : 'cV[F]_n)
         (Knm : 'M[F]_(n, m)) (Kmm P : 'M[F]_(m, m)),
    kn_wok cfg w ->
    forall k (Kt : 'M[F]_(k, m)),
    let st := sk_fit_mx cfg Knm w Kmm P in
    sk_transform_mx st Kt
    = (st.2 ord0 ord0)^-1 *: (Kt - rows_of k (if kn_center cfg then wmean (kn_effw cfg w) Knm else 0)).
Proof.
  by move=> F cfg n m w Knm Kmm P ok k Kt st; rewrite /st (sk_fit_mxE _ _ _ ok) sk_transform_mxE.
Qed.
Print Assumptions C12_sparse_test_block.

(* sample weights: only their direction matters *)

(* a common non-zero factor a on the sample weights (units, Boltzmann prefactors, 2^-60 ...)
   changes nothing: the weights stay usable, fit of both classes stores the same attributes and
   transform of KernelNormalizer (which reads the stored weights) returns the same matrix *)
Theorem C12_weight_scale_invariant :
  forall (F : rcfType) (cfg : kn_cfg) (n : nat) (w : 'cV[F]_n) (a : F),
    a != 0 -> kn_wok cfg w ->
    [/\ kn_wok cfg (a *: w),
        forall K : 'M[F]_(n, n), kn_fit_mx cfg K (a *: w) = kn_fit_mx cfg K w,
        forall k (st : kn_st F n) (Kt : 'M[F]_(k, n)),
          kn_transform_mx cfg (a *: w) st Kt = kn_transform_mx cfg w st Kt
      & forall m (Knm : 'M[F]_(n, m)) (Kmm P : 'M[F]_m),
          sk_fit_mx cfg Knm (a *: w) Kmm P = sk_fit_mx cfg Knm w Kmm P].
Proof. exact weight_scale_invariant. Qed.
Print Assumptions C12_weight_scale_invariant.

(* non-vacuity: given weights (1, 1) are usable and 2 is a non-zero factor, in every field *)
Example C12_weight_scale_nonvacuous :
  forall F : rcfType,
    kn_wok (KnCfg true true true) (const_mx 1 : 'cV[F]_2) /\ (2%:R : F) != 0.
Proof. by move=> F; rewrite /kn_wok /kn_effw /= wsum_ones pnatr_eq0. Qed.

(* the cut-off of pinv(Kmm, rcond) inside the model *)

(* the program computes U diag(f) U^T, f_j = 1/v_j above the cut-off and 0 below, and this is
   the Moore-Penrose pseudo-inverse of the matrix truncated at the cut-off *)
Theorem C12_pinv_cutoff_program :
  forall (F : rcfType) (m : nat) (t : F) (U : 'M[F]_m) (v : 'rV[F]_m),
    0 <= t ->
    pc_P_mx t U v = U *m diag_mx (cut_inv t v) *m U^T
    /\ (U^T *m U = 1%:M -> penrose (U *m diag_mx (cut_keep t v) *m U^T) (pc_P_mx t U v)).
Proof. by move=> F m t U v t0; split; [exact: pc_P_mxE | exact: pinv_cut_penrose]. Qed.
Print Assumptions C12_pinv_cutoff_program.

(* ... hence THE pseudo-inverse of Kmm (the oracle hypothesis of C12_sparse_feature_space is
   met by the model's own pinv) whenever no non-zero eigenvalue is discarded *)
Theorem C12_pinv_cutoff_penrose :
  forall (F : rcfType) (m : nat) (t : F) (K U : 'M[F]_m) (v : 'rV[F]_m),
    0 <= t -> spectral K U v ->
    (forall j, v ord0 j != 0 -> t < `|v ord0 j|) ->
    penrose K (pc_P_mx t U v).
Proof. exact pinv_cut_penrose_full. Qed.
Print Assumptions C12_pinv_cutoff_penrose.

(* the cut-off is RELATIVE (rcond * largest |eigenvalue|): multiplying Kmm by c > 0 divides
   the pseudo-inverse by c — no eigenvalue changes side *)
Theorem C12_pinv_cutoff_homogeneous :
  forall (F : rcfType) (m : nat) (c rc x : F) (U : 'M[F]_m) (v : 'rV[F]_m),
    0 < c -> 0 <= rc -> is_vmax x v ->
    is_vmax (c * x) (c *: v)
    /\ pc_P_mx (rc * (c * x)) U (c *: v) = c^-1 *: pc_P_mx (rc * x) U v.
Proof.
  by move=> F m c rc x U v c0 rc0 vm; split; [exact: is_vmax_scale | exact: pinv_cut_homog].
Qed.
Print Assumptions C12_pinv_cutoff_homogeneous.

(* ... so the result of SparseKernelCenterer does not depend on the magnitude of the kernels:
   kernels multiplied by c > 0 (features by sqrt c) give means times c, scale_ times sqrt c,
   transformed blocks times sqrt c (times c without trace scaling), and the SAME centred
   Nystrom kernel of the transformed training block *)
Theorem C12_sparse_magnitude_invariant :
  forall (F : rcfType) (cfg : kn_cfg) (n m : nat) (w : 'cV[F]_n)
         (Knm : 'M[F]_(n, m)) (Kmm U : 'M[F]_m) (v : 'rV[F]_m) (rc x c : F),
    kn_wok cfg w -> 0 < c -> 0 <= rc -> is_vmax x v ->
    let P := pc_P_mx (rc * x) U v in
    let P' := pc_P_mx (rc * (c * x)) U (c *: v) in
    let st := sk_fit_mx cfg Knm w Kmm P in
    let st' := sk_fit_mx cfg (c *: Knm) w (c *: Kmm) P' in
    let f := if kn_trace cfg then Num.sqrt c else 1 in
    [/\ P' = c^-1 *: P,
        st'.1 = c *: st.1 /\ st'.2 = f *: st.2,
        st.2 ord0 ord0 != 0 ->
        forall k (Kt : 'M[F]_(k, m)),
          sk_transform_mx st' (c *: Kt)
          = (if kn_trace cfg then Num.sqrt c else c) *: sk_transform_mx st Kt
      & kn_trace cfg -> st.2 ord0 ord0 != 0 ->
        let T := sk_transform_mx st Knm in
        let T' := sk_transform_mx st' (c *: Knm) in
        T' *m P' *m T'^T = T *m P *m T^T].
Proof.
  move=> F cfg n m w Knm Kmm U v rc x c ok c0 rc0 vm P P' st st' f.
  have eP : P' = c^-1 *: P by rewrite /P' /P pinv_cut_homog.
  rewrite /st' eP; split; first by [].
  - exact: sk_fit_scaled.
  - by move=> s0 k Kt; apply: sk_transform_scaled.
  - by move=> tr s0; apply: sk_nystrom_scaled.
Qed.
Print Assumptions C12_sparse_magnitude_invariant.

(* non-vacuity: Kmm = diag(4, 0), U = 1, any 0 <= rcond < 1 *)
Example C12_cutoff_nonvacuous :
  forall (F : rcfType) (rc : F),
    0 <= rc -> rc < 1 ->
    let v : 'rV[F]_2 := \row_j (if j == ord0 then 4%:R else 0) in
    [/\ is_vmax 4%:R v, spectral (diag_mx v) 1%:M v,
        (forall j, v ord0 j != 0 -> rc * 4%:R < `|v ord0 j|)
      & pc_P_mx (rc * 4%:R) 1%:M v = diag_mx (\row_j (if j == ord0 then 4%:R^-1 else 0))].
Proof. exact cut_nonvacuous. Qed.

(* the estimators as objects: histories *)

(* KernelNormalizer: after ANY history h, a successful fit leaves the object — and therefore the
   result of every later call — exactly as a NEW estimator with the flags currently in force would
   be after the same fit.  For every interpretation of the numerics (T, norm_w, fit_num, tr_num). *)
Theorem C12_refit_is_fresh_fit :
  forall (T : Type) (nrows ncols : T -> nat) (norm_w : T -> T)
         (fit_num : bool -> bool -> T -> option T -> T * T * T)
         (tr_num : bool -> option T -> T -> T -> T -> T -> T)
         (h tail : list (kn_op T)) (o0 : kn_obj T) (K : T) (w : option T),
    kn_w_ok T nrows K w = true ->
    let o := fst (kn_run T nrows ncols norm_w fit_num tr_num o0 h) in
    kn_run T nrows ncols norm_w fit_num tr_num o (OFit K w :: tail)
    = kn_run T nrows ncols norm_w fit_num tr_num (kn_new T (o_center T o) (o_trace T o)) (OFit K w :: tail).
Proof.
  move=> T nrows ncols norm_w fit_num tr_num h tail o0 K w Hw o.
  by rewrite /= (kn_refit_fresh T nrows ncols norm_w fit_num o K w Hw).
Qed.
Print Assumptions C12_refit_is_fresh_fit.

(* a rejected fit (weights of the wrong length: ValueError) leaves fitted attributes and flags
   as they were; transform never changes the object; an estimator without fitted attributes
   rejects transform *)
Theorem C12_rejected_calls :
  forall (T : Type) (nrows ncols : T -> nat) (norm_w : T -> T)
         (fit_num : bool -> bool -> T -> option T -> T * T * T)
         (tr_num : bool -> option T -> T -> T -> T -> T -> T) (o : kn_obj T) (K : T) (w : option T),
    (kn_w_ok T nrows K w = false ->
     let (o1, r) := kn_do_fit T nrows ncols norm_w fit_num o K w in
     r = RRaise /\ o_attrs T o1 = o_attrs T o /\ o_center T o1 = o_center T o /\ o_trace T o1 = o_trace T o)
    /\ fst (kn_do_transform T nrows ncols tr_num o K) = o
    /\ (o_attrs T o = None -> snd (kn_do_transform T nrows ncols tr_num o K) = RRaise).
Proof.
  move=> T nrows ncols norm_w fit_num tr_num o K w; split; first exact: kn_rejected_fit.
  by split; [exact: kn_transform_pure | exact: kn_unfitted_raises].
Qed.
Print Assumptions C12_rejected_calls.

(* fit_transform is fit followed by transform of the same kernel, as a statement about the
   object: same final object, same returned value *)
Theorem C12_obj_fit_transform :
  forall (T : Type) (nrows ncols : T -> nat) (norm_w : T -> T)
         (fit_num : bool -> bool -> T -> option T -> T * T * T)
         (tr_num : bool -> option T -> T -> T -> T -> T -> T) (o : kn_obj T) (K : T) (w : option T),
    kn_w_ok T nrows K w = true ->
    let (o2, rs) := kn_run T nrows ncols norm_w fit_num tr_num o (cons (OFit K w) (cons (OTransform K) nil)) in
    kn_run T nrows ncols norm_w fit_num tr_num o (cons (OFitTransform K w) nil)
    = (o2, cons (List.last rs RDone) nil).
Proof. exact kn_fit_transform_steps. Qed.
Print Assumptions C12_obj_fit_transform.

(* SparseKernelCenterer: the same three statements (re-fit = fresh fit with the flags and rcond
   in force; the three shape checks precede every assignment, so a rejected fit changes nothing;
   fit_transform = fit then transform), and transform accepts exactly the kernels with
   n_active_ columns of the LAST fit *)
Theorem C12_sparse_refit_is_fresh_fit :
  forall (T C H : Type) (nrows ncols : T -> nat)
         (sfit_num : bool -> bool -> C -> T -> T -> H -> option T -> T * T) (str_num : T -> T -> T -> T)
         (hist tail : list (sk_op T C H)) (o0 : sk_obj T C) (Knm Kmm : T) (h : H) (w : option T),
    sk_fit_ok T nrows ncols Knm Kmm w = true ->
    let o := fst (sk_run T C nrows ncols H sfit_num str_num o0 hist) in
    sk_run T C nrows ncols H sfit_num str_num o (SFit Knm Kmm h w :: tail)
    = sk_run T C nrows ncols H sfit_num str_num
             (sk_new T C (so_center T C o) (so_trace T C o) (so_rcond T C o)) (SFit Knm Kmm h w :: tail).
Proof.
  move=> T C H nrows ncols sfit_num str_num hist tail o0 Knm Kmm h w Hw o.
  by rewrite /= (sk_refit_fresh T C H nrows ncols sfit_num o Knm Kmm h w Hw).
Qed.
Print Assumptions C12_sparse_refit_is_fresh_fit.

Theorem C12_sparse_rejected_calls :
  forall (T C H : Type) (nrows ncols : T -> nat)
         (sfit_num : bool -> bool -> C -> T -> T -> H -> option T -> T * T) (str_num : T -> T -> T -> T)
         (o : sk_obj T C) (Knm Kmm Kt : T) (h : H) (w : option T),
    (sk_fit_ok T nrows ncols Knm Kmm w = false ->
     sk_do_fit T C nrows ncols H sfit_num o Knm Kmm h w = (o, RRaise))
    /\ fst (sk_do_transform T C ncols str_num o Kt) = o
    /\ (forall a, so_attrs T C o = Some a ->
        snd (sk_do_transform T C ncols str_num o Kt)
        = if Nat.eqb (ncols Kt) (s_nact T a) then ROut (str_num (s_rows T a) (s_scale T a) Kt) else RRaise)
    /\ (sk_fit_ok T nrows ncols Knm Kmm w = true ->
        let (o2, rs) := sk_run T C nrows ncols H sfit_num str_num o
                               (cons (SFit Knm Kmm h w) (cons (STransform Knm) nil)) in
        sk_run T C nrows ncols H sfit_num str_num o (cons (SFitTransform Knm Kmm h w) nil)
        = (o2, cons (List.last rs RDone) nil)).
Proof.
  move=> T C H nrows ncols sfit_num str_num o Knm Kmm Kt h w.
  split; first exact: sk_rejected_fit.
  split; first exact: sk_transform_pure.
  by split; [move=> a; exact: sk_transform_accepts | exact: sk_fit_transform_steps].
Qed.
Print Assumptions C12_sparse_rejected_calls.

(* non-vacuity, on the binary64 instantiation the check runs: one KernelNormalizer object fitted
   with weights (1, 3) on K1, then re-fitted WITHOUT weights on K2 = [[0,0],[0,4]]; the re-fit
   is accepted, the object equals a freshly fitted one, and transform(K2) is the matrix of
   C12_nonvacuous_float *)
Example C12_history_nonvacuous_float :
  let K1 := cons (cons 1%float (cons 2%float nil)) (cons (cons 2%float (cons 5%float nil)) nil) in
  let K2 := cons (cons 0%float (cons 0%float nil)) (cons (cons 0%float (cons 4%float nil)) nil) in
  let w := cons (cons 1%float nil) (cons (cons 3%float nil) nil) in
  let run := kn_run fmat f_nrows f_ncols f_norm_w f_fit_num f_tr_num in
  kn_w_ok fmat f_nrows K2 None = true
  /\ fst (run (kn_new fmat true true) (cons (fOFit K1 (Some w)) (cons (fOFit K2 wNone) nil)))
     = fst (run (kn_new fmat true true) (cons (fOFit K2 wNone) nil))
  /\ snd (run (kn_new fmat true true)
               (cons (fOFit K1 (Some w)) (cons (fOFit K2 wNone) (cons (fOTransform K2) nil))))
     = cons RDone (cons RDone (cons (ROut
         (cons (cons 1%float (cons (-1)%float nil)) (cons (cons (-1)%float (cons 1%float nil)) nil))) nil)).
Proof. by split; [|split]; vm_compute. Qed.

(* the caller's arrays: the object holds values, not references *)

(* Model/KernelHeap.v: the caller owns arrays (addresses in a heap), may overwrite them between
   calls (HWrite), and transform(K, copy=False) writes into the caller's array.  Object and
   results of ANY such history are those of the value-level machine on the calls resolved to the
   values the arrays held when each call was made *)
Theorem C12_object_holds_values :
  forall (T : Type) (nrows ncols : T -> nat) (norm_w : T -> T)
         (fit_num : bool -> bool -> T -> option T -> T * T * T)
         (tr_num : bool -> option T -> T -> T -> T -> T -> T)
         (cen_num : bool -> option T -> T -> T -> T -> T)
         (ops : list (kh_op T)) (o : kn_obj T) (h : heap T),
    let '(o2, _, rs) := kh_run T nrows ncols norm_w fit_num tr_num cen_num o h ops in
    (o2, rs) = kn_run T nrows ncols norm_w fit_num tr_num o
                      (kh_resolve T nrows ncols norm_w fit_num tr_num cen_num o h ops).
Proof. move=> T nrows ncols norm_w fit_num tr_num cen_num ops o h; exact: kh_run_resolved. Qed.
Print Assumptions C12_object_holds_values.

(* fit copies: after any prefix of calls, the caller may overwrite ANY of its arrays — those it
   passed to fit included — and neither the object nor the result of any later call changes,
   as long as no later call is itself handed the overwritten array *)
Theorem C12_fit_copies :
  forall (T : Type) (nrows ncols : T -> nat) (norm_w : T -> T)
         (fit_num : bool -> bool -> T -> option T -> T * T * T)
         (tr_num : bool -> option T -> T -> T -> T -> T -> T)
         (cen_num : bool -> option T -> T -> T -> T -> T)
         (pre tail : list (kh_op T)) (o : kn_obj T) (h : heap T) (a : nat) (v : T),
    (forall op, List.In op tail -> ~ List.In a (kh_reads T op)) ->
    let '(o1, _, rs1) := kh_run T nrows ncols norm_w fit_num tr_num cen_num o h (pre ++ HWrite a v :: tail) in
    let '(o2, _, rs2) := kh_run T nrows ncols norm_w fit_num tr_num cen_num o h (pre ++ tail) in
    o1 = o2 /\ rs1 = rs2.
Proof.
  move=> T nrows ncols norm_w fit_num tr_num cen_num pre tail o h a v; exact: kh_write_irrelevant.
Qed.
Print Assumptions C12_fit_copies.

(* fit_transform(K, w, copy=False), on the heap machine: same object, same RETURNED matrix and same
   contents of the caller's array afterwards as fit(K, w) followed by transform(K, copy=False) — the
   returned matrix is the fit-then-transform of the values the array held when the call was made
   (fit copies them first), the array afterwards holds the centred kernel the transform left *)
Theorem C12_fit_transform_inplace :
  forall (T : Type) (nrows ncols : T -> nat) (norm_w : T -> T)
         (fit_num : bool -> bool -> T -> option T -> T * T * T)
         (tr_num : bool -> option T -> T -> T -> T -> T -> T)
         (cen_num : bool -> option T -> T -> T -> T -> T)
         (o : kn_obj T) (h : heap T) (aK : nat) (aw : option nat),
    kn_w_ok T nrows (h aK) (hrd T h aw) = true ->
    let '(o2, h2, rs) := kh_run T nrows ncols norm_w fit_num tr_num cen_num o h
                                (cons (HFit aK aw) (cons (HTransformIP aK) nil)) in
    kh_run T nrows ncols norm_w fit_num tr_num cen_num o h (cons (HFitTransformIP aK aw) nil)
    = (o2, h2, cons (List.last rs RDone) nil).
Proof.
  move=> T nrows ncols norm_w fit_num tr_num cen_num o h aK aw; exact: kh_fit_transform_inplace.
Qed.
Print Assumptions C12_fit_transform_inplace.

(* non-vacuity on the binary64 instantiation: fit(K1 at address 0, weights at address 1), the
   caller overwrites both arrays, transform(copy=False) of the array at address 2: the result
   is the one obtained without the writes, and the array at address 2 now holds the centred,
   unscaled kernel *)
Example C12_fit_copies_nonvacuous_float :
  let K1 := cons (cons 1%float (cons 2%float nil)) (cons (cons 2%float (cons 5%float nil)) nil) in
  let w := cons (cons 1%float nil) (cons (cons 3%float nil) nil) in
  let junk := cons (cons 7%float (cons 7%float nil)) (cons (cons 7%float (cons 7%float nil)) nil) in
  let h : heap fmat := fun a => match a with O => K1 | S O => w | _ => K1 end in
  let r1 := fkh_run (kn_new fmat true true) h
              (cons (HFit 0%N (Some 1%N)) (cons (HWrite 1%N junk) (cons (HWrite 0%N junk) (cons (HTransformIP 2%N) nil)))) in
  let r2 := fkh_run (kn_new fmat true true) h (cons (HFit 0%N (Some 1%N)) (cons (HTransformIP 2%N) nil)) in
  snd r1 = snd r2 /\ fst (fst r1) = fst (fst r2)
  /\ (exists X, snd r1 = cons RDone (cons (ROut X) nil))
  /\ fclose_ref 0%float 0%float (snd (fst r1) 2%N) K1 = false
  /\ (let r3 := fkh_run (kn_new fmat true true) h (cons (HFitTransformIP 0%N (Some 1%N)) nil) in
      let r4 := fkh_run (kn_new fmat true true) h (cons (HFitTransform 0%N (Some 1%N)) nil) in
      snd r3 = snd r4 /\ fclose_ref 0%float 0%float (snd (fst r3) 0%N) K1 = false
      /\ snd (fst r4) 0%N = K1).
Proof.
  split; [by vm_compute|split; [by vm_compute|split; [|split]]].
  - by eexists; vm_compute.
  - by vm_compute.
  - by vm_compute.
Qed.
