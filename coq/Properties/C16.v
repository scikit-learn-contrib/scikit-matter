(* C16 — QuickShift returns the basin partition of the density-ascent graph.
   Each theorem is a lemma of Proofs/QuickShiftP.v, QSPermP.v, QSSessionP.v or QSFastP.v, or a few
   lines that instantiate the general ones there; the examples are evaluated.
   Model: Model/QuickShift.v.  [D] is the squared distance matrix after
   np.fill_diagonal(D, inf) (None = +inf), [w] the weights, [wt w i] = w[i], [dget D i j] = D[i][j];
   [fit_cut D w cut] / [fit_gab D w shell] are QuickShift.fit with per-point cut-offs resp. with
   gabriel_shell (result: idxroot, None = the inner while loop ran out of fuel n);
   [next_cut D w cut c] = _qs_next(c, idmindist[c], w, D, cut[c]), [next_gab D w shell c] =
   _gs_next(c, w, D, gabriel); [oget R i] = labels_[i]; [centres R] = cluster_centers_idx_.
   [sq_mat n D]: D is n x n.  [ext_lt] is < on Z + {inf}; [ext_le a b] := not (b < a).
   No theorem bounds n, the weights, the cut-offs or the shell depths; where D has to be symmetric
   or ties are excluded, the statement carries the hypothesis. *)
From Verif Require Import ListXP QuickShiftP QSSession QSSessionP QSPermP QSFast QSFastP.
Local Close Scope Z_scope.
Local Open Scope nat_scope.

(* fuel n suffices: the out-of-fuel value is unreachable *)
Theorem C16_terminates :
  forall n D w cut shell, sq_mat n D -> length w = n ->
    fit_cut D w cut <> None /\ fit_gab D w shell <> None.
Proof. exact (fun n D w cut shell HD Hw => fit_terminates n D w HD Hw cut shell). Qed.
Print Assumptions C16_terminates.

(* every point is labelled with a cluster centre, and every centre labels itself *)
Theorem C16_labels_are_roots :
  forall n D w cut shell R, sq_mat n D -> length w = n ->
    fit_cut D w cut = Some R \/ fit_gab D w shell = Some R ->
    length R = n /\ forall i, i < n -> exists r, oget R i = Some r /\ r < n /\ oget R r = Some r.
Proof.
  intros n D w cut shell R HD Hw [E|E];
    [apply (fit_cut_limits n D w HD Hw) in E; pose proof (next_cut_lt n D w HD Hw cut) as Hlt
    |apply (fit_gab_limits n D w HD Hw) in E; pose proof (next_gab_lt n D w HD Hw shell) as Hlt];
    (split; [apply E|]; intros i Hi;
     destruct (limits_label n _ Hlt R i E Hi) as (r & A & B & _ & C & _); exists r; auto).
Qed.
Print Assumptions C16_labels_are_roots.

(* labels_[i] is the fixed point reached from i by iterating the successor rule: path
   propagation attaches every path to its FINAL root.  First part: it is such a limit;
   second part: any fixed point reachable from i is the label (the limit is unique). *)
Theorem C16_label_is_ascent_limit_cut :
  forall n D w cut R, sq_mat n D -> length w = n -> fit_cut D w cut = Some R ->
    forall i, i < n ->
      (exists r k, oget R i = Some r /\ r = Nat.iter k (next_cut D w cut) i /\ next_cut D w cut r = r) /\
      (forall r k, r = Nat.iter k (next_cut D w cut) i -> next_cut D w cut r = r -> oget R i = Some r).
Proof.
  exact (fun n D w cut R HD Hw E i Hi => limits_iter n _ R i (fit_cut_limits n D w HD Hw cut R E) Hi).
Qed.
Print Assumptions C16_label_is_ascent_limit_cut.

Theorem C16_label_is_ascent_limit_gab :
  forall n D w shell R, sq_mat n D -> length w = n -> fit_gab D w shell = Some R ->
    forall i, i < n ->
      (exists r k, oget R i = Some r /\ r = Nat.iter k (next_gab D w shell) i /\ next_gab D w shell r = r) /\
      (forall r k, r = Nat.iter k (next_gab D w shell) i -> next_gab D w shell r = r -> oget R i = Some r).
Proof.
  exact (fun n D w shell R HD Hw E i Hi => limits_iter n _ R i (fit_gab_limits n D w HD Hw shell R E) Hi).
Qed.
Print Assumptions C16_label_is_ascent_limit_gab.

(* cluster_centers_idx_ is exactly the set of fixed points of the successor rule *)
Theorem C16_centres_are_fixed_points :
  forall n D w cut shell R c, sq_mat n D -> length w = n ->
    (fit_cut D w cut = Some R -> (In c (centres R) <-> c < n /\ next_cut D w cut c = c)) /\
    (fit_gab D w shell = Some R -> (In c (centres R) <-> c < n /\ next_gab D w shell c = c)).
Proof.
  intros n D w cut shell R c HD Hw. split; intros E; apply limits_centres.
  - apply (fit_cut_limits n D w HD Hw), E.
  - apply (fit_gab_limits n D w HD Hw), E.
Qed.
Print Assumptions C16_centres_are_fixed_points.

(* idmindist[c] = np.argmin(D[c]) is the first index of the row minimum *)
Theorem C16_nearest_neighbour :
  forall row, row <> [] ->
    let nn := argmin_row row in
    nn < length row /\
    forall j, j < length row ->
      ext_le (nth nn row None) (nth j row None) /\ (j < nn -> ext_lt (nth nn row None) (nth j row None) = true).
Proof. exact argmin_row_spec. Qed.
Print Assumptions C16_nearest_neighbour.

(* cut-off rule.  A point j is admissible for c if it has higher weight and lies within c's
   cut-off.  If some point is admissible the successor is a nearest admissible point, the
   first in index order among equally near ones; otherwise it is the nearest neighbour if
   that has higher weight, else c itself. *)
Theorem C16_next_spec_cut :
  forall n D w cut c, sq_mat n D -> length w = n ->
    let adm j := j < n /\ (wt w c < wt w j)%Z /\ ext_lt (dget D c j) (Some (nth c cut 0%Z)) = true in
    let nn := argmin_row (nth c D []) in
    let nx := next_cut D w cut c in
    ((exists j, adm j) ->
       adm nx /\ forall j, adm j -> ext_le (dget D c nx) (dget D c j) /\ (dget D c j = dget D c nx -> nx <= j)) /\
    ((forall j, ~ adm j) -> nx = if (wt w c <? wt w nn)%Z then nn else c).
Proof. exact (fun n D w cut c HD Hw => next_cut_spec n D w HD Hw cut c). Qed.
Print Assumptions C16_next_spec_cut.

(* c is a centre iff no higher-weight point lies within c's cut-off and c's nearest
   neighbour is not higher *)
Theorem C16_centre_spec_cut :
  forall n D w cut c, sq_mat n D -> length w = n ->
    (next_cut D w cut c = c <->
     (forall j, ~ (j < n /\ (wt w c < wt w j)%Z /\ ext_lt (dget D c j) (Some (nth c cut 0%Z)) = true)) /\
     ~ (wt w c < wt w (argmin_row (nth c D [])))%Z).
Proof. exact (fun n D w cut c HD Hw => centre_spec_cut n D w HD Hw cut c). Qed.
Print Assumptions C16_centre_spec_cut.

(* Gabriel rule: admissible = higher weight, inside the shell of c (neighs after
   gabriel_shell - 1 expansions of row c of the Gabriel graph), at finite distance *)
Theorem C16_next_spec_gab :
  forall n D w shell c, sq_mat n D -> length w = n ->
    let adm j := j < n /\ (wt w c < wt w j)%Z /\ ext_lt (dget D c j) None = true /\
                 nth j (shell_set (gabriel D) shell c) false = true in
    let nx := next_gab D w shell c in
    ((exists j, adm j) ->
       adm nx /\ forall j, adm j -> ext_le (dget D c nx) (dget D c j) /\ (dget D c j = dget D c nx -> nx <= j)) /\
    ((forall j, ~ adm j) -> nx = c).
Proof. exact (fun n D w shell c HD Hw => next_gab_spec n D w HD Hw shell c). Qed.
Print Assumptions C16_next_spec_gab.

Theorem C16_centre_spec_gab :
  forall n D w shell c, sq_mat n D -> length w = n ->
    (next_gab D w shell c = c <->
     forall j, ~ (j < n /\ (wt w c < wt w j)%Z /\ ext_lt (dget D c j) None = true /\
                  nth j (shell_set (gabriel D) shell c) false = true)).
Proof. exact (fun n D w shell c HD Hw => centre_spec_gab n D w HD Hw shell c). Qed.
Print Assumptions C16_centre_spec_gab.

(* the shell used by _gs_next -- neighs after `for _ in range(1, gabriel_shell)` -- is the set
   of points reachable from c by a walk of 1 .. max(1, gabriel_shell) Gabriel edges
   ([gpath n G k c b]: a walk of k edges from c to b in G through points < n) *)
Theorem C16_shell_is_graph_ball :
  forall n D shell c b, length D = n -> c < n ->
    (nth b (shell_set (gabriel D) shell c) false = true <->
     exists k, 1 <= k <= Nat.max 1 shell /\ gpath n (gabriel D) k c b).
Proof. exact (fun n D shell c b HL Hc => shell_set_spec n (gabriel D) (gabriel_sq n D HL) shell c b Hc). Qed.
Print Assumptions C16_shell_is_graph_ball.

(* a point of maximal weight is always a centre *)
Theorem C16_max_weight_is_centre :
  forall n D w cut shell R c, sq_mat n D -> length w = n -> c < n ->
    (forall j, j < n -> (wt w j <= wt w c)%Z) ->
    fit_cut D w cut = Some R \/ fit_gab D w shell = Some R -> oget R c = Some c.
Proof.
  intros n D w cut shell R c HD Hw Hc Hmax E.
  destruct (max_weight_next n D w HD Hw cut shell c Hc Hmax) as [Fc Fg].
  destruct E as [E|E].
  - apply (limits_centre n _ R c (fit_cut_limits n D w HD Hw cut R E) Hc), Fc.
  - apply (limits_centre n _ R c (fit_gab_limits n D w HD Hw shell R E) Hc), Fg.
Qed.
Print Assumptions C16_max_weight_is_centre.

(* the graph produced by the double loop of _get_gabriel_graph (j starting at i, both
   triangles written from row i) is the brute-force Gabriel graph: i -- j iff no third
   point lies strictly inside the ball with diameter ij *)
Theorem C16_gabriel_bruteforce :
  forall n D i j, length D = n ->
    (forall a b, a < n -> b < n -> dget D a b = dget D b a) -> i < n -> j < n ->
    (nth j (nth i (gabriel D) []) false = true <->
     i <> j /\ ~ exists k, k < n /\ ext_lt (ext_add (dget D i k) (dget D j k)) (dget D i j) = true).
Proof. exact gabriel_bruteforce. Qed.
Print Assumptions C16_gabriel_bruteforce.

(* weights enter only through <: any strictly increasing re-mapping leaves the labels unchanged *)
Theorem C16_weight_remap :
  forall (f : Z -> Z) n D w cut shell,
    (forall a b, (a < b)%Z <-> (f a < f b)%Z) -> sq_mat n D -> length w = n ->
    fit_cut D (map f w) cut = fit_cut D w cut /\ fit_gab D (map f w) shell = fit_gab D w shell.
Proof.
  exact (fun f n D w cut shell Hf HD Hw =>
    conj (fit_cut_remap f Hf n D w HD Hw cut) (fit_gab_remap f Hf n D w HD Hw shell)).
Qed.
Print Assumptions C16_weight_remap.

(* Order independence, part 1: the outer loop may visit the points in ANY order that covers them
   all -- the labels are those of `for i in range(n)`.  (The full statement -- renaming the points
   renames the labels -- is C16_permutation_cut / C16_permutation_gab below.) *)
Theorem C16_permutation_partial :
  forall n D w cut shell order, sq_mat n D -> length w = n ->
    (forall i, In i order -> i < n) -> (forall i, i < n -> In i order) ->
    fold_left (fit_step n (next_cut D w cut)) order (Some (repeat None n)) = fit_cut D w cut /\
    fold_left (fit_step n (next_gab D w shell)) order (Some (repeat None n)) = fit_gab D w shell.
Proof.
  intros n D w cut shell order HD Hw H1 H2. rewrite (fit_cut_eq n D w HD Hw), (fit_gab_eq n D w HD Hw). split.
  - exact (fit_any_order n _ w (next_cut_lt n D w HD Hw cut) (fun i _ => next_cut_up n D w HD Hw cut i) order H1 H2).
  - exact (fit_any_order n _ w (next_gab_lt n D w HD Hw shell) (fun i _ => next_gab_up n D w HD Hw shell i) order H1 H2).
Qed.
Print Assumptions C16_permutation_partial.

(* Order independence, full statement.  [p] renames the points ([p'] its inverse on 0..n-1); the
   renamed input is (D', w', cut') with D'[p i][p j] = D[i][j], w'[p i] = w[i], cut'[p i] = cut[i].
   Under the hypotheses that switch the two index tie-breaks off --
     [no_dist_ties n D w]: no two strictly heavier points lie at the same distance from a point
                           (C16_next_spec_*: "the first in index order among equally near ones"),
     [unique_nn n D]:      every point's nearest neighbour is unique (np.argmin = first minimum) --
   the labels of the renamed input are the renamed labels:  labels'[p i] = p (labels[i]).
   With ties the partition legitimately depends on the index order, which is why they are
   hypotheses.  First the rule-independent core: ANY two successor maps conjugated by p give
   conjugated labels. *)
Theorem C16_permutation_of_conjugate_successor :
  forall n (next next' : nat -> nat) w w' (p : nat -> nat),
    (forall i, i < n -> next i < n) -> (forall i, i < n -> next i = i \/ (wt w i < wt w (next i))%Z) ->
    (forall i, i < n -> next' i < n) -> (forall i, i < n -> next' i = i \/ (wt w' i < wt w' (next' i))%Z) ->
    (forall i, i < n -> p i < n) -> (forall i, i < n -> next' (p i) = p (next i)) ->
    forall R R', fit_with n next = Some R -> fit_with n next' = Some R' ->
    forall i, i < n -> oget R' (p i) = option_map p (oget R i).
Proof.
  intros n next next' w w' p Hlt Hup Hlt' Hup' Hp Heq R R' E E'.
  apply (limits_conj n next next' p R R' Hlt Hp Heq).
  - apply (fit_with_some n next w Hlt Hup R E).
  - apply (fit_with_some n next' w' Hlt' Hup' R' E').
Qed.
Print Assumptions C16_permutation_of_conjugate_successor.

Theorem C16_permutation_cut :
  forall n D D' w w' cut cut' (p p' : nat -> nat) R R',
    sq_mat n D -> sq_mat n D' -> length w = n -> length w' = n ->
    (forall i, i < n -> p i < n) -> (forall j, j < n -> p' j < n) -> (forall j, j < n -> p (p' j) = j) ->
    (forall i j, i < n -> j < n -> dget D' (p i) (p j) = dget D i j) ->
    (forall i, i < n -> wt w' (p i) = wt w i) ->
    (forall i, i < n -> nth (p i) cut' 0%Z = nth i cut 0%Z) ->
    no_dist_ties n D w -> unique_nn n D ->
    fit_cut D w cut = Some R -> fit_cut D' w' cut' = Some R' ->
    forall i, i < n -> oget R' (p i) = option_map p (oget R i).
Proof.
  intros n D D' w w' cut cut' p p' R R' HD HD' Hw Hw' Hp Hp' Hpp HDp Hwp Hcp Ht Hu E E'.
  apply (limits_conj n (next_cut D w cut) (next_cut D' w' cut') p R R'); auto.
  - apply next_cut_lt; assumption.
  - intros i Hi. apply (next_cut_perm n D D' w w' p p'); assumption.
  - apply (fit_cut_limits n D w HD Hw), E.
  - apply (fit_cut_limits n D' w' HD' Hw'), E'.
Qed.
Print Assumptions C16_permutation_cut.

(* Gabriel rule (D symmetric): the graph, the shells and the successor map are all renamed by p *)
Theorem C16_permutation_gab :
  forall n D D' w w' shell (p p' : nat -> nat) R R',
    sq_mat n D -> sq_mat n D' -> length w = n -> length w' = n ->
    (forall i, i < n -> p i < n) -> (forall j, j < n -> p' j < n) ->
    (forall j, j < n -> p (p' j) = j) -> (forall i, i < n -> p' (p i) = i) ->
    (forall i j, i < n -> j < n -> dget D' (p i) (p j) = dget D i j) ->
    (forall i, i < n -> wt w' (p i) = wt w i) ->
    (forall a b, a < n -> b < n -> dget D a b = dget D b a) -> no_dist_ties n D w ->
    fit_gab D w shell = Some R -> fit_gab D' w' shell = Some R' ->
    forall i, i < n -> oget R' (p i) = option_map p (oget R i).
Proof.
  intros n D D' w w' shell p p' R R' HD HD' Hw Hw' Hp Hp' Hpp Hpp' HDp Hwp Hs Ht E E'.
  apply (limits_conj n (next_gab D w shell) (next_gab D' w' shell) p R R'); auto.
  - apply next_gab_lt; assumption.
  - intros i Hi. apply (next_gab_perm n D D' w w' p p'); assumption.
  - apply (fit_gab_limits n D w HD Hw), E.
  - apply (fit_gab_limits n D' w' HD' Hw'), E'.
Qed.
Print Assumptions C16_permutation_gab.

(* ... and the Gabriel graph itself is renamed (no tie hypothesis needed) *)
Theorem C16_gabriel_permutation :
  forall n D D' (p p' : nat -> nat),
    sq_mat n D -> sq_mat n D' ->
    (forall i, i < n -> p i < n) -> (forall j, j < n -> p' j < n) ->
    (forall j, j < n -> p (p' j) = j) -> (forall i, i < n -> p' (p i) = i) ->
    (forall i j, i < n -> j < n -> dget D' (p i) (p j) = dget D i j) ->
    (forall a b, a < n -> b < n -> dget D a b = dget D b a) ->
    forall i j, i < n -> j < n -> bget (gabriel D') (p i) (p j) = bget (gabriel D) i j.
Proof. exact gabriel_perm. Qed.
Print Assumptions C16_gabriel_permutation.

(* non-vacuity of the permutation theorems: four points on a line at 0,1,3,7 (all six distances
   distinct), weights 1,3,2,4, cut-offs 5: labels 1,1,1,3; reversed input (p i = 3 - i): labels
   0,2,2,2 = the reversed renamed labels; every hypothesis of C16_permutation_cut/_gab holds *)
Example C16_permutation_nonvacuous :
  let D := [[None; Some 1; Some 9; Some 49]; [Some 1; None; Some 4; Some 36];
            [Some 9; Some 4; None; Some 16]; [Some 49; Some 36; Some 16; None]]%Z in
  let D' := [[None; Some 16; Some 36; Some 49]; [Some 16; None; Some 4; Some 9];
             [Some 36; Some 4; None; Some 1]; [Some 49; Some 9; Some 1; None]]%Z in
  let w := [1; 3; 2; 4]%Z in let w' := [4; 2; 3; 1]%Z in
  let p := fun i => 3 - i in
  sq_mat 4 D /\ sq_mat 4 D' /\
  (forall i j, i < 4 -> j < 4 -> dget D' (p i) (p j) = dget D i j) /\
  (forall i, i < 4 -> wt w' (p i) = wt w i) /\
  (forall j, j < 4 -> p (p j) = j) /\
  (forall a b, a < 4 -> b < 4 -> dget D a b = dget D b a) /\
  no_dist_ties 4 D w /\ unique_nn 4 D /\
  fit_cut D w [5; 5; 5; 5]%Z = Some (map Some [1; 1; 1; 3]) /\
  fit_cut D' w' [5; 5; 5; 5]%Z = Some (map Some [0; 2; 2; 2]) /\
  fit_gab D w 1 = Some (map Some [1; 1; 1; 3]) /\ fit_gab D' w' 1 = Some (map Some [0; 2; 2; 2]).
Proof.
  intros D D' w w' p.
  split; [split; [reflexivity|repeat constructor]|].
  split; [split; [reflexivity|repeat constructor]|].
  split; [refine (forall_below2 _ 4 _); repeat apply Forall_cons; try apply Forall_nil; reflexivity|].
  split; [refine (forall_below _ 4 _); repeat apply Forall_cons; try apply Forall_nil; reflexivity|].
  split; [intros j Hj; unfold p; lia|].
  split; [refine (forall_below2 _ 4 _); repeat apply Forall_cons; try apply Forall_nil; reflexivity|].
  split; [intros c j j' Hc Hj Hj'; revert j' Hj'; revert c j Hc Hj;
          refine (forall_below2 _ 4 _); repeat apply Forall_cons; try apply Forall_nil;
          refine (forall_below _ 4 _); repeat apply Forall_cons; try apply Forall_nil;
          vm_compute; intros; try reflexivity; discriminate|].
  split; [refine (forall_below2 _ 4 _); repeat apply Forall_cons; try apply Forall_nil;
          vm_compute; intros; try reflexivity; discriminate|].
  vm_compute. repeat split.
Qed.

(* non-vacuity: six points on a line at 0,1,2,10,11,12 with weights 1,5,3,2,9,4 (squared
   distances); cut-off 5 gives the basins {0,1,2} -> 1 and {3,4,5} -> 4, a huge cut-off
   merges everything into the heaviest point through the chain 0 -> 1 -> 4; the Gabriel graph
   of collinear points is the path 0-1-2-3-4-5, so shell 1 gives the two basins, shell 3 one *)
Example C16_nonvacuous :
  let D := [[None; Some 1; Some 4; Some 100; Some 121; Some 144];
            [Some 1; None; Some 1; Some 81; Some 100; Some 121];
            [Some 4; Some 1; None; Some 64; Some 81; Some 100];
            [Some 100; Some 81; Some 64; None; Some 1; Some 4];
            [Some 121; Some 100; Some 81; Some 1; None; Some 1];
            [Some 144; Some 121; Some 100; Some 4; Some 1; None]]%Z in
  let w := [1; 5; 3; 2; 9; 4]%Z in
  sq_mat 6 D /\ length w = 6 /\
  fit_cut D w [5; 5; 5; 5; 5; 5]%Z = Some (map Some [1; 1; 1; 4; 4; 4]) /\
  fit_cut D w [500; 500; 500; 500; 500; 500]%Z = Some (map Some [4; 4; 4; 4; 4; 4]) /\
  next_cut D w [500; 500; 500; 500; 500; 500]%Z 0 = 1 /\
  fit_gab D w 1 = Some (map Some [1; 1; 1; 4; 4; 4]) /\ fit_gab D w 3 = Some (map Some [4; 4; 4; 4; 4; 4]) /\
  nth 3 (nth 2 (gabriel D) []) false = true /\ nth 3 (nth 1 (gabriel D) []) false = false /\
  centres (map Some [1; 1; 1; 4; 4; 4]) = [1; 4].
Proof.
  intros D w. split; [split; [reflexivity|repeat constructor]|]. vm_compute. repeat split.
Qed.

(* What the correspondence evaluates for point sets of a few hundred points (Model/QSFast.v): the
   Gabriel test walking the two rows in parallel, and the graph built ONCE per fit and handed to
   every _gs_next call (as the code does).  Both are the model's own [gabriel] / [fit_gab] -- so all
   theorems above apply to what is evaluated -- only cheaper under vm_compute (n^3 instead of n^4). *)
Theorem C16_fast_model_equal :
  forall n D w shell, sq_mat n D ->
    gabriel_fast D = gabriel D /\ fit_gab_fast D w shell = fit_gab D w shell.
Proof. exact (fun n D w shell HD => conj (gabriel_fast_eq n D HD) (fit_gab_fast_eq n D w shell HD)). Qed.
Print Assumptions C16_fast_model_equal.

Example C16_fast_model_nonvacuous :
  let D := [[None; Some 1; Some 9; Some 49]; [Some 1; None; Some 4; Some 36];
            [Some 9; Some 4; None; Some 16]; [Some 49; Some 36; Some 16; None]]%Z in
  sq_mat 4 D /\ fit_gab_fast D [1; 3; 2; 4]%Z 1 = Some (map Some [1; 1; 1; 3]) /\
  map row_idx (gabriel_fast D) = [[1]; [0; 2]; [1; 3]; [2]].
Proof. intros D. split; [split; [reflexivity|repeat constructor]|]. vm_compute. split; reflexivity. Qed.

(* Sessions (Model/QSSession.v): estimator objects as a state machine.  [qrun S ops] runs a history
   of calls from state S (the caller's cut-off arrays [s_cuts], cell arrays [s_cells] (lengths),
   data sets [s_data], estimator objects [s_est]):
     New e c s2 sh cell : est[e] = QuickShift(cuts[c] | None, sh, scale = s2/2,
                                              metric_params = {"cell_length": cells[cell] | None})
     Fit e d            : est[e].fit(X_d, w_d)
     SetShell e sh      : est[e].set_params(gabriel_shell = sh)
     SetCell e cell     : est[e].set_params(metric_params = {"cell_length": cells[cell] | None})
     SetCut e c         : est[e].set_params(dist_cutoff_sq = cuts[c] | None)   (stored as given)
     SetScale e s2      : est[e].set_params(scale = s2/2)                      (never read again)
     SetW d w           : the caller rewrites w_d in place;      Read e : est[e].labels_
   [reconf e o]: o is New e .. / SetShell e .. / SetCell e .. / SetCut e ..;  [cfg_step cuts x o]:
   the effect of such a call on the estimator record x;  [dsel q cell]: the squared distance matrix
   of data q under the metric with that cell;  [fit_guard cells x q]: fit raises ValueError (the
   cell recorded by __init__, or the cell in force inside the metric, does not have the data's
   dimension);  [fit_obs r] = what fit shows (labels_, cluster_centers_idx_) or that it raised. *)

(* no call ever writes the caller's cut-off arrays, whatever the history *)
Theorem C16_session_cuts_unchanged :
  forall S ops, s_cuts (fst (qrun S ops)) = s_cuts S.
Proof. intros S ops. apply qrun_frame. Qed.
Print Assumptions C16_session_cuts_unchanged.

(* ... and the caller's data change through the caller's own writes only *)
Theorem C16_session_data_caller_only :
  forall S ops, s_data (fst (qrun S ops)) = fold_left caller_step ops (s_data S).
Proof. intros S ops. apply qrun_frame. Qed.
Print Assumptions C16_session_data_caller_only.

(* fit reads EVERY hyper-parameter when it runs.  After an arbitrary history [ops] the parameters
   of est[e] are those produced by the configuration calls addressed to est[e] alone, in order
   (last write wins per parameter; fits, refits, reads, set_params(scale=..), calls on other
   estimators, rejected calls are all irrelevant), and est[e].fit on data d shows exactly the fresh
   fit for them: cut-offs in force, shell in force, and the distance matrix of d under the cell in
   force when fit runs. *)
Theorem C16_session_fit_reads_parameters_in_force :
  forall S0 ops e d,
    e < length (s_est S0) ->
    let S := fst (qrun S0 ops) in
    let x := fold_left (cfg_step (s_cuts S0)) (filter (reconf e) ops) (get_est S0 e) in
    let q := get_data S d in
    fit_guard (s_cells S0) x q = false ->
    snd (qstep S (Fit e d)) = fit_obs (fit_of_params (e_cut x) (e_shell x) (dsel q (e_cell x)) (q_w q)).
Proof.
  intros S0 ops e d He S x q Hg. apply (fit_obs_pars S e d x).
  - apply session_params_projection, He.
  - unfold S at 1. rewrite qrun_cells. exact Hg.
Qed.
Print Assumptions C16_session_fit_reads_parameters_in_force.

(* A fit is a FRESH fit.  Let est[e] be constructed from the caller's cut-off array c with scale
   s2/2 and cell [cell] after an arbitrary history [pre] (which may have handed the same array to
   any number of constructors, fitted, refitted, ...), followed by an arbitrary history [mid] that
   does not re-configure est[e].  Then est[e].fit on data d shows exactly [quickshift]
   (Model/QuickShift.v, to which every theorem above applies) of d's distance matrix under that
   cell and d's current weights for the cut-offs  ORIGINAL array c * (s2/2)^2. *)
Theorem C16_session_fit_is_fresh_fit_cut :
  forall S0 pre mid e c s2 sh cell d,
    e < length (s_est S0) ->
    forallb (fun o => negb (reconf e o)) mid = true ->
    let S := fst (qrun S0 (pre ++ New e (Some c) s2 sh cell :: mid)) in
    let q := get_data S d in
    cell_mismatch (s_cells S0) cell (q_dim q) = false ->
    snd (qstep S (Fit e d)) = fit_obs (quickshift (dsel q cell) (q_w q) (Cut (nth c (s_cuts S0) []) s2)).
Proof.
  intros S0 pre mid e c s2 sh cell d He Hmid S q Hdim.
  apply (fit_after_last S0 pre mid e d He Hmid (New e (Some c) s2 sh cell)
           (mkEst (Some (eff_cut (nth c (s_cuts S0) []) s2)) sh cell cell None)).
  - apply Nat.eqb_refl.
  - cbn. destruct sh; reflexivity.
  - rewrite (guard_same _ cell) by reflexivity. exact Hdim.
Qed.
Print Assumptions C16_session_fit_is_fresh_fit_cut.

Theorem C16_session_fit_is_fresh_fit_gab :
  forall S0 pre mid e s2 sh cell d,
    e < length (s_est S0) ->
    forallb (fun o => negb (reconf e o)) mid = true ->
    let S := fst (qrun S0 (pre ++ New e None s2 (Some sh) cell :: mid)) in
    let q := get_data S d in
    cell_mismatch (s_cells S0) cell (q_dim q) = false ->
    snd (qstep S (Fit e d)) = fit_obs (quickshift (dsel q cell) (q_w q) (Gab sh)).
Proof.
  intros S0 pre mid e s2 sh cell d He Hmid S q Hdim.
  apply (fit_after_last S0 pre mid e d He Hmid (New e None s2 (Some sh) cell) (mkEst None (Some sh) cell cell None)).
  - apply Nat.eqb_refl.
  - reflexivity.
  - rewrite (guard_same _ cell) by reflexivity. exact Hdim.
Qed.
Print Assumptions C16_session_fit_is_fresh_fit_gab.

(* set_params, parameter by parameter ([x1] = est[e] just before the call; [mid] does not
   re-configure est[e]).  gabriel_shell: the fit is that of the new shell *)
Theorem C16_session_fit_after_setshell :
  forall S0 pre mid e sh' d,
    e < length (s_est S0) ->
    forallb (fun o => negb (reconf e o)) mid = true ->
    let x1 := get_est (fst (qrun S0 pre)) e in
    e_cut x1 = None ->
    let S := fst (qrun S0 (pre ++ SetShell e sh' :: mid)) in
    let q := get_data S d in
    fit_guard (s_cells S0) x1 q = false ->
    snd (qstep S (Fit e d)) = fit_obs (quickshift (dsel q (e_cell x1)) (q_w q) (Gab sh')).
Proof.
  intros S0 pre mid e sh' d He Hmid x1 Hc S q Hg.
  apply (fit_after_last S0 pre mid e d He Hmid (SetShell e sh') (mkEst None (Some sh') (e_cell x1) (e_cell0 x1) None)).
  - apply Nat.eqb_refl.
  - fold x1. unfold pars. cbn. rewrite Hc. reflexivity.
  - exact Hg.
Qed.
Print Assumptions C16_session_fit_after_setshell.

(* metric_params: the distances are those of the cell given to set_params, not of the cell the
   estimator was constructed with (the metric closure reads metric_params when fit calls it) *)
Theorem C16_session_fit_after_setcell :
  forall S0 pre mid e cell' d,
    e < length (s_est S0) ->
    forallb (fun o => negb (reconf e o)) mid = true ->
    let x1 := get_est (fst (qrun S0 pre)) e in
    let S := fst (qrun S0 (pre ++ SetCell e cell' :: mid)) in
    let q := get_data S d in
    cell_mismatch (s_cells S0) (e_cell0 x1) (q_dim q) = false ->
    cell_mismatch (s_cells S0) cell' (q_dim q) = false ->
    snd (qstep S (Fit e d)) = fit_obs (fit_of_params (e_cut x1) (e_shell x1) (dsel q cell') (q_w q)).
Proof.
  intros S0 pre mid e cell' d He Hmid x1 S q Hg0 Hg1.
  apply (fit_after_last S0 pre mid e d He Hmid (SetCell e cell') (mkEst (e_cut x1) (e_shell x1) cell' (e_cell0 x1) None)).
  - apply Nat.eqb_refl.
  - reflexivity.
  - unfold fit_guard. cbn [e_cell e_cell0]. fold S q. rewrite Hg0, Hg1. reflexivity.
Qed.
Print Assumptions C16_session_fit_after_setcell.

(* dist_cutoff_sq: the array given to set_params is used as given -- `scale` is applied by
   __init__ only -- i.e. the fit is that of a construction with scale 1 (s2 = 2) *)
Theorem C16_session_fit_after_setcut :
  forall S0 pre mid e c d,
    e < length (s_est S0) ->
    forallb (fun o => negb (reconf e o)) mid = true ->
    let x1 := get_est (fst (qrun S0 pre)) e in
    let S := fst (qrun S0 (pre ++ SetCut e (Some c) :: mid)) in
    let q := get_data S d in
    fit_guard (s_cells S0) x1 q = false ->
    snd (qstep S (Fit e d)) = fit_obs (quickshift (dsel q (e_cell x1)) (q_w q) (Cut (nth c (s_cuts S0) []) 2)).
Proof.
  intros S0 pre mid e c d He Hmid x1 S q Hg.
  apply (fit_after_last S0 pre mid e d He Hmid (SetCut e (Some c))
           (mkEst (Some (eff_cut (nth c (s_cuts S0) []) 2)) (e_shell x1) (e_cell x1) (e_cell0 x1) None)).
  - apply Nat.eqb_refl.
  - reflexivity.
  - exact Hg.
Qed.
Print Assumptions C16_session_fit_after_setcut.

(* the rejection branches (constructor with neither rule; fit on data whose dimension is not the
   cell's) raise and leave the whole state -- estimators, their labels_, the caller's arrays --
   as it was *)
Theorem C16_session_rejections :
  forall S e s2 cell d,
    qstep S (New e None s2 None cell) = (S, ObsErr) /\
    (fit_guard (s_cells S) (get_est S e) (get_data S d) = true -> qstep S (Fit e d) = (S, ObsErr)).
Proof. intros S e s2 cell d. split; [reflexivity|]. intros H. cbn [qstep]. rewrite H. reflexivity. Qed.
Print Assumptions C16_session_rejections.

(* labels_ read after a successful fit is that fit's result *)
Theorem C16_session_read_after_fit :
  forall S e d R c,
    e < length (s_est S) ->
    qstep S (Fit e d) = (fst (qstep S (Fit e d)), ObsFit R c) ->
    snd (qstep (fst (qstep S (Fit e d))) (Read e)) = ObsRead (Some R).
Proof.
  intros S e d R c He. cbn [qstep]. destruct (fit_guard _ _ _); [discriminate|].
  destruct (est_fit _ _) as [R'|]; [|discriminate]. cbn [fst snd]. intros E.
  injection E as <- _. rewrite get_set, Nat.eqb_refl by exact He. reflexivity.
Qed.
Print Assumptions C16_session_read_after_fit.

(* non-vacuity: the line of C16_nonvacuous (points 0,1,2,10,11,12), without a cell (matrix D) and
   in a cell of length 13 (matrix Dp: 0 and 12 become neighbours).  ONE caller array of cut-offs
   5/8 .. is handed with scale 2 (s2 = 4) to est[0] and est[1]: both see 40 * 16 / 32 = 20 (basins
   0,1,2 -> 1 and 3,4,5 -> 4), also after a rejected constructor call, and the array is as it was.
   Then est[1].set_params(metric_params = cell): the same estimator now merges everything into
   point 4 (1 -> 4 at periodic distance 9 < 20, 0 -> 1); set_params(scale) changes nothing;
   set_params(dist_cutoff_sq = the same array) uses it unscaled, 40 * 4 / 32 = 5: two basins again. *)
Example C16_session_nonvacuous :
  let D := [[None; Some 1; Some 4; Some 100; Some 121; Some 144];
            [Some 1; None; Some 1; Some 81; Some 100; Some 121];
            [Some 4; Some 1; None; Some 64; Some 81; Some 100];
            [Some 100; Some 81; Some 64; None; Some 1; Some 4];
            [Some 121; Some 100; Some 81; Some 1; None; Some 1];
            [Some 144; Some 121; Some 100; Some 4; Some 1; None]]%Z in
  let Dp := [[None; Some 1; Some 4; Some 9; Some 4; Some 1];
             [Some 1; None; Some 1; Some 16; Some 9; Some 4];
             [Some 4; Some 1; None; Some 25; Some 16; Some 9];
             [Some 9; Some 16; Some 25; None; Some 1; Some 4];
             [Some 4; Some 9; Some 16; Some 1; None; Some 1];
             [Some 1; Some 4; Some 9; Some 4; Some 1; None]]%Z in
  let S0 := mkState [[40; 40; 40; 40; 40; 40]%Z] [1] [mkData 1 [D; Dp] [1; 5; 3; 2; 9; 4]%Z] [no_est; no_est] in
  let ops := [New 0 (Some 0) 4%Z None None; New 1 (Some 0) 4%Z (Some 2) None; Fit 0 0; Fit 1 0;
              New 1 None 4%Z None None; Fit 1 0; Read 1;
              SetCell 1 (Some 0); Fit 1 0; SetScale 1 6%Z; Fit 1 0; SetCut 1 (Some 0); Fit 1 0] in
  let R := map Some [1; 1; 1; 4; 4; 4] in
  let Rp := map Some [4; 4; 4; 4; 4; 4] in
  snd (qrun S0 ops) =
    [ObsNew (Some [640; 640; 640; 640; 640; 640]%Z); ObsNew (Some [640; 640; 640; 640; 640; 640]%Z);
     ObsFit R [1; 4]; ObsFit R [1; 4]; ObsErr; ObsFit R [1; 4]; ObsRead (Some R);
     ObsUnit; ObsFit Rp [4]; ObsUnit; ObsFit Rp [4];
     ObsNew (Some [160; 160; 160; 160; 160; 160]%Z); ObsFit R [1; 4]] /\
  s_cuts (fst (qrun S0 ops)) = s_cuts S0 /\
  forallb (fun o => negb (reconf 0 o)) [New 1 (Some 0) 4%Z (Some 2) None; Fit 0 0; Fit 1 0] = true.
Proof. intros D Dp S0 ops R Rp. vm_compute. repeat split. Qed.
