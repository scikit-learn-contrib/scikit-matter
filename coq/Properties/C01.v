(* C01 — every selector returns a consistent set of distinct, valid indices.
   Model: Model/Select.v + Model/Greedy.v (GreedySelector.fit for an arbitrary scorer, given
   as the stream of score vectors presented to the arg-max).  [sfit cand ycand prev c inits str]
   is one call of fit: [prev] the state left by the previous fit (None = never fitted), [c] the
   configuration (n_to_select form, threshold, full, warm_start), [inits] the initial selections
   of a cold start.  [state_ok] is the invariant of fitted states; C01_chain_invariant shows
   every fit re-establishes it, so all statements hold after ANY chain of cold/warm fits.
   Each theorem is an instance of, or a few lines from, the lemmas of Proofs/GreedyP.v (the loop),
   SelectP.v (sfit_inv, sfit_length, transform_spec), SelBufP.v (bfit_run) and SelBufRefP.v. *)
From Verif Require Import ListX Greedy Select ListXP GreedyP SelectP C01Thm SelBuf SelBufP SelBufRefP.
From Coq Require Import PrimFloat.
From Coq Require Import Sorting.Permutation Sorting.Sorted.

Theorem C01_chain_invariant :
  forall cand ycand prev c inits str,
    state_ok cand ycand prev -> NoDup inits -> in_rng (length cand) inits ->
    stream_ok (length cand) str ->
    forall g st, sfit cand ycand prev c inits str = Fitted g st -> state_ok cand ycand (Some g).
Proof. intros cand ycand prev c inits str Hp Hnd Hr Hs g st. now apply sfit_inv. Qed.
Print Assumptions C01_chain_invariant.

(* pairwise distinct, in-range indices — both the internal sequence and what is reported *)
Theorem C01_distinct_in_range :
  forall cand ycand prev c inits str,
    state_ok cand ycand prev -> NoDup inits -> in_rng (length cand) inits ->
    stream_ok (length cand) str ->
    forall g st, sfit cand ycand prev c inits str = Fitted g st ->
      NoDup (sel g) /\ in_rng (length cand) (sel g) /\
      NoDup (reported_sel g st (n_before prev c inits)) /\
      in_rng (length cand) (reported_sel g st (n_before prev c inits)).
Proof.
  intros cand ycand prev c inits str Hp Hnd Hr Hs g st E.
  destruct (sfit_inv cand ycand prev c inits str g st Hp Hnd Hr Hs E) as (A & B & _).
  do 2 (split; [assumption|]). unfold reported_sel.
  destruct st; [split; [now apply firstn_NoDup|now apply firstn_Forall]|now split].
Qed.
Print Assumptions C01_distinct_in_range.

(* the stored columns/rows and targets are the input sliced at the selections, in order *)
Theorem C01_stored_data :
  forall cand ycand prev c inits str,
    state_ok cand ycand prev -> NoDup inits -> in_rng (length cand) inits ->
    stream_ok (length cand) str ->
    forall g st, sfit cand ycand prev c inits str = Fitted g st ->
      xsel g = map (fun i => nth i cand []) (sel g) /\
      (forall y, ycand = Some y -> ysel g = map (fun i => nth i y []) (sel g)).
Proof.
  intros cand ycand prev c inits str Hp Hnd Hr Hs g st E.
  destruct (sfit_inv cand ycand prev c inits str g st Hp Hnd Hr Hs E) as (_ & _ & A & B & _). now split.
Qed.
Print Assumptions C01_stored_data.

(* length = the size implied by n_to_select unless a threshold stopped the search.
   PARTIAL: the full statement also demands len(selected_idx_) = n_selected_ after a threshold
   stop; the code as it stands violates that (C01_threshold_stop_refuted below, known finding). *)
Theorem C01_length_partial :
  forall cand ycand prev c inits str,
    state_ok cand ycand prev -> NoDup inits -> in_rng (length cand) inits ->
    stream_ok (length cand) str ->
    forall g st, sfit cand ycand prev c inits str = Fitted g st ->
    forall k, resolve_n (length cand) (c_nts c) = Some k -> (n_before prev c inits <= k)%nat ->
      (length (sel g) <= k)%nat /\
      (st = false -> length (sel g) = k /\ reported_sel g st (n_before prev c inits) = sel g).
Proof.
  intros cand ycand prev c inits str Hp Hnd Hr Hs g st E k Hk Hle.
  destruct (sfit_length cand ycand prev c inits str g st k Hp Hnd Hr Hs E Hk Hle) as [A B].
  split; [exact A|]. intros ->. now split; [apply B|].
Qed.
Print Assumptions C01_length_partial.

Theorem C01_threshold_stop_refuted :
  exists cand inits str c g,
    sfit cand None None c inits str = Fitted g true /\
    length (reported_sel g true (n_before None c inits)) <> length (sel g).
Proof.
  exists [[0;0];[3;0];[0;4];[1;1]], [0%nat], [[0;9;16;2];[0;0;16;2];[0;0;0;2]],
         (mk_cfg (NtsInt 4) (AbsThr 5 1) false false).
  eexists. split; [vm_compute; reflexivity|]. vm_compute. discriminate.
Qed.
Print Assumptions C01_threshold_stop_refuted.

(* n_to_select = None asks for half of the candidates, an integer must lie in [1, n], a fraction in
   (0, 1] gives int(n*f) as binary64 computes it (Model/Resolve.v) *)
Theorem C01_resolve_n :
  forall n p k, resolve_n n p = Some k ->
    match p with
    | NtsNone => k = Nat.div n 2
    | NtsInt z => 0 < z <= Z.of_nat n /\ k = Z.to_nat z
    | NtsFrac r ok => ok = true /\ k = Z.to_nat r
    end.
Proof.
  intros n [|z|r ok] k; cbn.
  - now intros [= <-].
  - destruct (Z.ltb_spec 0 z), (Z.leb_spec z (Z.of_nat n)); cbn; try discriminate. intros [= <-]. auto.
  - destruct ok; [|discriminate]. intros [= <-]. auto.
Qed.
Print Assumptions C01_resolve_n.

(* every kept selection had a score at or above the threshold when it was taken *)
Theorem C01_threshold_kept :
  forall cand ycand t k g,
    GInv stream cand ycand (SP cand) g -> has_thr t = true ->
    Forall (fun x => below t (snd x) (snd (fst x)) = false)
           (run_tr stream (s_score (length cand)) s_upd cand ycand t k g).
Proof.
  exact (fun cand ycand =>
    run_tr_above stream (s_score (length cand)) s_upd cand ycand (SP cand)
                 (SP_len cand) (SP_upd cand)).
Qed.
Print Assumptions C01_threshold_kept.

(* when the threshold stops the search, the best remaining score is below it *)
Theorem C01_threshold_stop :
  forall cand ycand t k g g',
    GInv stream cand ycand (SP cand) g -> (length (sel g) + k <= length cand)%nat ->
    run stream (s_score (length cand)) s_upd cand ycand t k g = (g', true) ->
    exists i f, is_best stream (s_score (length cand)) cand g' i /\ first g' = Some f /\
                below t f (nth i (s_score (length cand) (sst g')) 0) = true.
Proof.
  exact (fun cand ycand =>
    run_stop_below stream (s_score (length cand)) s_upd cand ycand (SP cand)
                   (SP_len cand) (SP_upd cand)).
Qed.
Print Assumptions C01_threshold_stop.

(* derived views: support mask, sorted index list, transform *)
Theorem C01_views :
  forall cand s, NoDup s -> in_rng (length cand) s ->
    (forall i, (i < length cand)%nat -> nth i (support (length cand) s) false = true <-> In i s) /\
    length (support (length cand) s) = length cand /\
    Permutation s (support_indices s) /\ Sorted le (support_indices s) /\
    transform_cols cand s = map (fun i => nth i cand []) (support_indices s).
Proof.
  intros cand s Hnd Hr. split; [intros i Hi; now apply support_spec|].
  split; [apply support_length|]. split; [apply sort_nat_perm|]. split; [apply sort_nat_sorted|].
  now apply transform_spec.
Qed.
Print Assumptions C01_views.

(* ValueError before anything is written: full=True together with a threshold, an n_to_select
   outside its range, warm_start on an object without selections *)
Theorem C01_rejections :
  forall cand ycand prev c inits str,
    (c_full c = true /\ has_thr (c_thr c) = true) \/ resolve_n (length cand) (c_nts c) = None \/
    (c_warm c = true /\ (prev = None \/ exists g0, prev = Some g0 /\ sel g0 = [])) ->
    sfit cand ycand prev c inits str = Rejected.
Proof. exact c01_rejections. Qed.
Print Assumptions C01_rejections.

(* non-vacuity: a concrete cold fit, then a warm start on the state it left (which asks for the
   two items already selected) *)
Example C01_nonvacuous :
  let cand := [[0;0];[3;0];[0;4];[1;1]] in
  let str := [[0;9;16;2];[0;9;0;2];[0;0;0;2]] in
  in_rng 4 [0%nat] /\ stream_ok 4 str /\
  exists g, sfit cand None None (mk_cfg (NtsInt 2) NoThr false false) [0%nat] str = Fitted g false /\
            sel g = [0; 2]%nat /\
  exists g2, sfit cand None (Some g) (mk_cfg NtsNone NoThr false true) [] [] = Fitted g2 false /\
             sel g2 = [0; 2]%nat.
Proof.
  cbv zeta. split; [repeat constructor|]. split; [repeat constructor|].
  eexists. split; [vm_compute; reflexivity|]. split; [reflexivity|].
  eexists. split; vm_compute; reflexivity.
Qed.

(* The BUFFER-LEVEL model Model/SelBuf.v.  [bfit cand ycand prev c inits str] is one call of fit
   on the object state [prev] as Python holds it: n_selected_ and the
   selected_idx_/X_selected_/y_selected_ buffers with their capacity (np.zeros / np.pad / prefix
   assignment with numpy broadcasting / indexed writes / the three truncations of the threshold
   exit).  Out-of-range writes and the non-broadcastable prefix assignment are explicit
   outcomes [BRaised EIndex/EValue]; [EOut] = the observed score stream does not fit the model.
   The threshold test [bc_tst c] is ANY function of (first_score_, score): the exact integer
   tests [tst_of_thr] and the binary64 tests on float scores [tst_fabs]/[tst_frel] (relative:
   s / first < t with IEEE division) are instances.  [tr] is the trace of the loop of this
   fit: (index, score, first_score_, kept?).  [sel_before] = the selections present before the
   loop (initialisation of a cold start / the index buffer a warm start continues from). *)

(* Every successful fit, for every threshold test, capacity and score stream: the selections
   are distinct and in range, their number is n_selected_ and (without a stop) the size implied
   by n_to_select, X_selected_ is the input sliced at ALL of them; selected_idx_ and y_selected_
   are that sequence and y sliced at it, cut to the loop counter when the threshold stopped the
   search (exact form of finding F2); every kept step passed the threshold test and a stop was
   caused by a step that failed it. *)
Theorem C01_buf_fit :
  forall cand ycand prev c inits str k,
    (bc_warm c = true -> bprev_ok cand ycand prev) ->
    (bc_warm c = false -> NoDup inits /\ in_rng (length cand) inits) ->
    resolve_n (length cand) (bc_nts c) = Some k ->
    (length (sel_before prev c inits) <= k)%nat ->
    forall b st tr, bfit cand ycand prev c inits str = BFitted b st tr ->
      let s0 := sel_before prev c inits in
      let s := s0 ++ kept_idx tr in
      let cut := fun (A : Type) (l : list A) => if st then firstn (length s - length s0) l else l in
      NoDup s /\ in_rng (length cand) s /\ (length s <= k)%nat /\ (st = false -> length s = k) /\
      b_n b = length s /\ b_x b = map (fun i => nth i cand []) s /\ b_idx b = cut _ s /\
      b_y b = match ycand with
              | Some y => Some (cut _ (map (fun i => nth i y []) s)) | None => None end /\
      (forall below, bc_tst c = Some below ->
         Forall (fun e => te_below below e = negb (te_kept e)) tr) /\
      (st = true -> has_tst (bc_tst c) = true /\ exists e, In e tr /\ te_kept e = false).
Proof.
  intros cand ycand prev c inits str k Hp Hin Hk Hle b st tr E.
  pose proof (bfit_run cand ycand prev c inits str k Hp Hin Hk Hle) as H. rewrite E in H.
  cbv zeta. replace (length (sel_before prev c inits ++ kept_idx tr) - length (sel_before prev c inits))%nat
    with (O + length (kept_idx tr))%nat by (rewrite app_length; lia).
  exact H.
Qed.
Print Assumptions C01_buf_fit.

(* the buffer bookkeeping never overflows and the warm-start prefix assignment never fails:
   inside the quantifier of C01 no IndexError / ValueError can come out of the search *)
Theorem C01_buf_no_buffer_error :
  forall cand ycand prev c inits str k,
    (bc_warm c = true -> bprev_ok cand ycand prev) ->
    (bc_warm c = false -> NoDup inits /\ in_rng (length cand) inits) ->
    resolve_n (length cand) (bc_nts c) = Some k ->
    (length (sel_before prev c inits) <= k)%nat ->
    forall e, bfit cand ycand prev c inits str = BRaised e -> e = EOut.
Proof.
  intros cand ycand prev c inits str k Hp Hin Hk Hle e E.
  pose proof (bfit_run cand ycand prev c inits str k Hp Hin Hk Hle) as H. now rewrite E in H.
Qed.
Print Assumptions C01_buf_no_buffer_error.

(* chain invariant on the object state: the fitted object is consistent (index buffer of
   length n_selected_, distinct, in range, X_selected_/y_selected_ = input sliced at it) after
   every fit that was not stopped by the threshold — and ALSO after a threshold stop when no
   selection preceded the loop (cold CUR / PCov-CUR); such a state may be warm-continued *)
Theorem C01_buf_chain_invariant :
  forall cand ycand prev c inits str k,
    (bc_warm c = true -> bprev_ok cand ycand prev) ->
    (bc_warm c = false -> NoDup inits /\ in_rng (length cand) inits) ->
    resolve_n (length cand) (bc_nts c) = Some k ->
    (length (sel_before prev c inits) <= k)%nat ->
    forall b st tr, bfit cand ycand prev c inits str = BFitted b st tr ->
      (st = false \/ sel_before prev c inits = []) ->
      NoDup (b_idx b) /\ in_rng (length cand) (b_idx b) /\ b_n b = length (b_idx b) /\
      b_x b = map (fun i => nth i cand []) (b_idx b) /\
      b_y b = match ycand with
              | Some y => Some (map (fun i => nth i y []) (b_idx b)) | None => None end.
Proof.
  intros cand ycand prev c inits str k Hp Hin Hk Hle b st tr E.
  pose proof (bfit_run cand ycand prev c inits str k Hp Hin Hk Hle) as H. rewrite E in H.
  exact (run_post_bok cand ycand _ _ _ _ _ _ H).
Qed.
Print Assumptions C01_buf_chain_invariant.

(* what is reported in every case (also after a stop that cut selections off): the index
   buffer is distinct and in range, the targets are y sliced at exactly it, the leading part of
   X_selected_ is X sliced at it, and its length is n_selected_ minus the selections that
   preceded the loop of a stopped fit — the exact size of the F2 discrepancy *)
Theorem C01_length_exact :
  forall cand ycand prev c inits str k,
    (bc_warm c = true -> bprev_ok cand ycand prev) ->
    (bc_warm c = false -> NoDup inits /\ in_rng (length cand) inits) ->
    resolve_n (length cand) (bc_nts c) = Some k ->
    (length (sel_before prev c inits) <= k)%nat ->
    forall b st tr, bfit cand ycand prev c inits str = BFitted b st tr ->
      NoDup (b_idx b) /\ in_rng (length cand) (b_idx b) /\
      b_y b = match ycand with
              | Some y => Some (map (fun i => nth i y []) (b_idx b)) | None => None end /\
      firstn (length (b_idx b)) (b_x b) = map (fun i => nth i cand []) (b_idx b) /\
      length (b_idx b) = (b_n b - (if st then length (sel_before prev c inits) else O))%nat.
Proof.
  intros cand ycand prev c inits str k Hp Hin Hk Hle b st tr E.
  pose proof (bfit_run cand ycand prev c inits str k Hp Hin Hk Hle) as H. rewrite E in H.
  exact (run_post_reported cand ycand _ _ _ _ _ _ H).
Qed.
Print Assumptions C01_length_exact.

Theorem C01_buf_rejections :
  forall cand ycand prev c inits str,
    (bc_full c = true /\ has_tst (bc_tst c) = true) \/ resolve_n (length cand) (bc_nts c) = None \/
    (bc_warm c = true /\ (prev = None \/ exists b0, prev = Some b0 /\ b_n b0 = O)) ->
    bfit cand ycand prev c inits str = BRejected.
Proof. exact bfit_rejections. Qed.
Print Assumptions C01_buf_rejections.

(* a cold fit does not depend on what any earlier fit left in the object *)
Theorem C01_cold_fit_forgets_history :
  forall cand ycand prev prev' c inits str,
    bc_warm c = false -> bfit cand ycand prev c inits str = bfit cand ycand prev' c inits str.
Proof. intros cand ycand prev prev' c inits str H. unfold bfit. now rewrite H. Qed.
Print Assumptions C01_cold_fit_forgets_history.

(* The abstract model [sfit] (about whose loop C01_chain_invariant ... C01_threshold_stop above and
   the farthest-point / leverage-score theorems of C02, C06, C07 speak) is an abstraction of the
   buffer-level model: whenever the buffer-level fit succeeds from a consistent state, the
   abstract fit succeeds from the state it stands for ([prev_rel]: same selection sequence and
   first_score_), with the same stop flag; its selection sequence is the one underlying the
   buffers, what the index buffer shows is [reported_sel] of it, and both leave the same score
   stream and first_score_ behind. *)
Theorem C01_buf_refines_abstract :
  forall cand ycand pg pb c inits str k b st tr,
    prev_rel pg pb ->
    (c_warm c = true -> bprev_ok cand ycand pb) ->
    (c_warm c = false -> NoDup inits /\ in_rng (length cand) inits) ->
    resolve_n (length cand) (c_nts c) = Some k ->
    (length (sel_before pb (bcfg_of c) inits) <= k)%nat ->
    bfit cand ycand pb (bcfg_of c) inits str = BFitted b st tr ->
    exists g, sfit cand ycand pg c inits str = Fitted g st /\
              sel g = sel_before pb (bcfg_of c) inits ++ kept_idx tr /\
              reported_sel g st (n_before pg c inits) = b_idx b /\
              first g = b_first b /\ b_n b = length (sel g) /\ sst g = b_str b.
Proof. exact bfit_refines_sfit. Qed.
Print Assumptions C01_buf_refines_abstract.

(* Consequences of finding F2 for a warm start after a stop that cut selections off, on the
   faithful model (each replayed on the implementation by the check, all under the F2 key):
   one kept step -> the 1-element index buffer is broadcast, duplicate index;
   two kept steps -> the prefix assignment raises ValueError;
   with targets -> the y buffer is padded too short, IndexError in the loop. *)
Theorem C01_warm_after_stop_refuted :
  f2_stage1 = BFitted f2_b1 true f2_tr1 /\ b_idx f2_b1 = [O] /\ b_n f2_b1 = 2%nat /\
  f2_stage2 = BFitted f2_b2 false f2_tr2 /\ ~ NoDup (b_idx f2_b2).
Proof.
  split; [vm_compute; reflexivity|]. do 2 (split; [reflexivity|]). split; [vm_compute; reflexivity|].
  change (b_idx f2_b2) with [O; O; 1%nat; 3%nat].
  intros H. inversion H as [|? ? Hn _]; subst. apply Hn. now left.
Qed.
Print Assumptions C01_warm_after_stop_refuted.

Theorem C01_warm_after_stop_value_error_refuted :
  f2v_stage1 = BFitted f2v_b1 true f2v_tr1 /\
  length (b_idx f2v_b1) = 2%nat /\ b_n f2v_b1 = 3%nat /\
  bfit f2_cand None (Some f2v_b1) (mk_bcfg (NtsInt 4) None false true) [] [[0;0;0;2]]
    = BRaised EValue.
Proof. split; [vm_compute; reflexivity|]. do 2 (split; [reflexivity|]). vm_compute; reflexivity. Qed.
Print Assumptions C01_warm_after_stop_value_error_refuted.

Theorem C01_warm_after_stop_index_error_refuted :
  f2i_stage1 = BFitted f2i_b1 true f2i_tr1 /\
  bfit f2_cand f2_y (Some f2i_b1) (mk_bcfg (NtsInt 4) None false true) []
       [[0;9;0;2];[0;0;0;2]] = BRaised EIndex.
Proof. split; vm_compute; reflexivity. Qed.
Print Assumptions C01_warm_after_stop_index_error_refuted.

(* non-vacuity: float scores (IEEE bit patterns of 0.5, 0.3, 0.1), RELATIVE threshold 0.5 on
   binary64: 0.5/0.5 and 0.3/0.5 pass, 0.1/0.5 stops the search; no selection preceded the
   loop, so the state is consistent and a warm start (no threshold) continues it *)
Example C01_buf_nonvacuous :
  let cand := [[1;0];[0;2];[3;3]] in
  let y := Some [[7];[8];[9]] in
  let h := 4602678819172646912 in let t := 4599075939470750515 in let o := 4591870180066957722 in
  exists b1 tr1 b2 tr2,
    bfit cand y None (mk_bcfg (NtsInt 3) (tst_frel 0.5%float) false false) []
         [[h;t;o];[0;t;o];[0;0;o]] = BFitted b1 true tr1 /\
    b_idx b1 = [0;1]%nat /\ b_n b1 = 2%nat /\ b_y b1 = Some [[7];[8]] /\
    bprev_ok cand y (Some b1) /\
    bfit cand y (Some b1) (mk_bcfg (NtsInt 3) None false true) [] [[0;0;o]]
      = BFitted b2 false tr2 /\
    b_idx b2 = [0;1;2]%nat /\ b_x b2 = [[1;0];[0;2];[3;3]].
Proof.
  cbv zeta. do 4 eexists.
  split; [vm_compute; reflexivity|]. do 3 (split; [reflexivity|]).
  split; [|split; [vm_compute; reflexivity|split; reflexivity]].
  refine (conj _ (conj _ (conj eq_refl (conj eq_refl eq_refl)))); cbn [b_idx].
  - constructor; [intros [H|[]]; discriminate|]. constructor; [intros []|constructor].
  - repeat constructor.
Qed.

(* NaN scores (finite but overflowing input: inf - inf): the harness codes every NaN as
   0x7FF8000000000000, above +infinity (0x7FF0000000000000).  On the codes the masked first-index
   arg-max is numpy's np.argmax after `scores[selected] = -inf`: the FIRST NaN among the unselected
   wins over +infinity and over every finite score; the code decodes to nan and no threshold test
   (absolute or relative, binary64) stops on it. *)
Example C01_nan_order :
  let nanc := 9221120237041090560 in let infc := 9218868437227405312 in
  amax (mask [0%nat] [nanc; infc; nanc; nanc; 4607182418800017408]) = Some (2%nat, nanc) /\
  PrimFloat.is_nan (dec nanc) = true /\
  match tst_fabs infinity with Some below => below nanc nanc = false | None => False end /\
  match tst_frel 0.5%float with Some below => below infc nanc = false /\ below nanc infc = false | None => False end.
Proof.
  (* evaluate first: [split] on an equation whose sides still compute evaluates them in the unifier *)
  vm_compute. repeat split.
Qed.
