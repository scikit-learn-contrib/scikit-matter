(* C13 — reconstruction measures (GRE, GRD, LRE) vanish on contained information, are
   isometry invariant, root-mean-square consistent, bounded on the training set.
   Each statement is followed either by the few lines that instantiate the matrix lemmas of
   Proofs/ReconP.v and Proofs/ReconExtP.v (algebra over an arbitrary real closed field F, all shapes:
   the statement's equations on the environment are pushed through the standardisation, then one lemma
   about plain matrices closes it) or by `exact <lemma>` where the proof is a script of its own
   (Proofs/ReconP.v, ReconExtP.v, ReconIdxP.v, ReconListP.v, Findings/F11_grd_wide_source.v).

   Model: Model/Recon.v.  Programs (columns of pointwise values):
     gre_prog n m p q, grd_prog n m p q r (r = max p q), lre_prog n m p q k (one test point),
     global_prog pw.
   The scaler (StandardFlexibleScaler defaults) is modelled and its facts are PROVED here
   (Proofs/ReconP.v: std_affine, std_orth, std_colsum, std_fro2); the estimator, the
   orthogonal regression and the neighbour choice enter through CONTRACTS on oracle variables
   of the environment (accessors rc_X: rc_W weights, rc_alpha regulariser, rc_Om Procrustes
   rotation, rc_Ep/rc_Eq padding matrices, rc_Sel neighbour selection, rc_ei test-point
   selector, rc_Wi local weights, rc_U/rc_S/rc_V thin SVD):
     ridge contract    eval (ridge_hyp_prog n p q) = 0   i.e.  (Xs^T Xs + alpha I) W = Xs^T Ys
                       (alpha = 0: exact least squares), uniqueness = `gram Xs alpha \in unitmx`
                       (alpha > 0, or full column rank);
     cut-off contract  cutoff_contract: Xs V = U diag S, U^T U = I, W = V diag(1/S) U^T Ys;
     Procrustes        Omega orthogonal and a minimiser of |Xs E_p Omega - Yhat E_q|_F.
   Xs_tr/Xs_te/Ys_tr/Ys_te are the standardised blocks (scaler fitted on the training rows).

   The CHECKED Procrustes contract (Model/ReconExt.v, Proofs/ReconExtP.v)
   proc_contract n p q r env :=  Omega^T Omega = I  /\  Omega^T M = L^T L  (rc_L: oracle
   factor, slot 15; M = (Xs E_p)^T (Xs W E_q)) - both residuals are evaluated per run - implies
   global optimality (C13_procrustes_contract_sufficient) and, for a training source of full
   column rank, determines GRD (C13_grd_determined); from it GRD under source and target
   rotation for every pair of widths.  The input-check functions (guards, index resolution)
   are layer-D code (Proofs/ReconIdxP.v). *)
From mathcomp Require Import all_ssreflect all_algebra fingroup perm.
From Verif Require Import MExp MExpMx Recon ReconExt ReconListP ReconIdxP ReconP ReconExtP F11_grd_wide_source.
Import GRing.Theory Num.Theory.
Close Scope float_scope.
Local Open Scope ring_scope.

(* all pointwise measures and every global value are non-negative (no contract) *)
Theorem C13_nonneg :
  forall (F : rcfType) (n m p q : nat) (env : env_mx F) (r k : nat),
    [/\ forall i, 0 <= (eval_mx env (gre_prog n m p q)) i ord0,
        forall i, 0 <= (eval_mx env (grd_prog n m p q r)) i ord0,
        0 <= (eval_mx env (lre_prog n m p q k)) ord0 ord0
      & forall (pw : mexp m 1), 0 <= (eval_mx env (global_prog pw)) ord0 ord0].
Proof.
  move=> F n m p q env r k; split=> [i|i||pw]; rewrite ?greE ?grdE ?lreE ?globalE; try exact: rownorm_ge0.
  exact: glob_ge0.
Qed.
Print Assumptions C13_nonneg.

(* each global value is the root mean square of its pointwise values: global^2 * m = sum pw^2 *)
Theorem C13_rms :
  forall (F : rcfType) (m : nat) (env : env_mx F) (pw : mexp m 1),
    (0 < m)%N ->
    ((eval_mx env (global_prog pw)) ord0 ord0) ^+ 2 * m%:R = \sum_i ((eval_mx env pw) i ord0) ^+ 2.
Proof. by move=> F m env pw m0; rewrite globalE glob_rms. Qed.
Print Assumptions C13_rms.

(* GRE, GRD, LRE - and every contract residual, so oracle values stay valid - are unchanged
   when either space is uniformly rescaled (c > 0) and shifted; no estimator contract *)
Theorem C13_rescale_shift :
  forall (F : rcfType) (n m p q : nat) (cx cy : F) (bx : 'rV[F]_p) (by_ : 'rV[F]_q)
         (r k : nat) (env env' : env_mx F),
    (0 < n)%N -> 0 < cx -> 0 < cy ->
    affine_related n m cx cy bx by_ env env' -> same_oracles n m p q r k env env' ->
    [/\ eval_mx env' (gre_prog n m p q) = eval_mx env (gre_prog n m p q),
        eval_mx env' (grd_prog n m p q r) = eval_mx env (grd_prog n m p q r),
        eval_mx env' (lre_prog n m p q k) = eval_mx env (lre_prog n m p q k)
      & [/\ eval_mx env' (ridge_hyp_prog n p q) = eval_mx env (ridge_hyp_prog n p q),
            eval_mx env' (lre_hyp_prog n p q k) = eval_mx env (lre_hyp_prog n p q k),
            eval_mx env' (proc_m n p q r) = eval_mx env (proc_m n p q r)
          & forall i j, (eval_mx env' (sqdist_prog n m p)) i j = (eval_mx env (sqdist_prog n m p)) i j]].
Proof.
  move=> F n m p q cx cy bx by_ r k env env' n0 x0 y0 /(affine_std n0 x0 y0) [E1 E2 E3 E4].
  move=> [EW Ea [EO [EEp EEq]] [ES [Ee EWi]]].
  split; last split.
  - by rewrite !greE E2 E4 EW.
  - by rewrite !grdE E2 EW EO EEp EEq.
  - by rewrite !lreE /LX /LY E1 E2 E3 E4 ES Ee EWi.
  - by rewrite !ridge_hypE E1 E3 EW Ea.
  - by rewrite !lre_hypE /LX /LY E1 E3 ES EWi Ea.
  - by rewrite !proc_mE E1 EW EEp EEq.
  - by rewrite !sqdistE E1 E2.
Qed.
Print Assumptions C13_rescale_shift.

(* GRE(X, XA) = 0 for every linear map A: exact least squares, standardised training source
   of full column rank, both spaces of positive variance *)
Theorem C13_gre_zero :
  forall (F : rcfType) (n m p q : nat) (env : env_mx F) (A : 'M[F]_(p, q)),
    rc_Ytr env n q = rc_Xtr env n p *m A -> rc_Yte env m q = rc_Xte env m p *m A ->
    0 < varsum (rc_Xtr env n p) -> 0 < varsum (rc_Ytr env n q) ->
    rc_alpha env = 0 -> eval_mx env (ridge_hyp_prog n p q) = 0 ->
    gram (Xs_tr n p env) 0 \in unitmx ->
    eval_mx env (gre_prog n m p q) = 0.
Proof.
  move=> F n m p q env A Etr Ete vx _ a0 /ridge_hyp_eq0 H Gu.
  have [E1 E2] := contained_std Etr Ete vx; rewrite a0 E1 in H.
  by rewrite greE E2 (ls_exact Gu H) subrr rownorm0.
Qed.
Print Assumptions C13_gre_zero.

(* GRD(X, XQ) = 0 for orthogonal Q (equal widths, so no padding): least squares with full
   column rank; Omega a minimiser of the Procrustes problem over the orthogonal matrices *)
Theorem C13_grd_zero :
  forall (F : rcfType) (n m p : nat) (env : env_mx F) (Q : 'M[F]_p),
    Q *m Q^T = 1%:M ->
    rc_Ytr env n p = rc_Xtr env n p *m Q -> rc_Yte env m p = rc_Xte env m p *m Q ->
    0 < varsum (rc_Xtr env n p) ->
    rc_alpha env = 0 -> eval_mx env (ridge_hyp_prog n p p) = 0 ->
    gram (Xs_tr n p env) 0 \in unitmx ->
    rc_Ep env p p = 1%:M -> rc_Eq env p p = 1%:M ->
    (forall Om' : 'M[F]_p, Om'^T *m Om' = 1%:M ->
        fro2 (Xs_tr n p env *m rc_Om env p - Xs_tr n p env *m rc_W env p p)
        <= fro2 (Xs_tr n p env *m Om' - Xs_tr n p env *m rc_W env p p)) ->
    eval_mx env (grd_prog n m p p p) = 0.
Proof. exact recon_grd_zero. Qed.
Print Assumptions C13_grd_zero.

(* GRE is unchanged by a rotation or reflection of the source space (ridge contract with a
   unique solution on the original problem, the same alpha on both sides) *)
Theorem C13_gre_source_rotation :
  forall (F : rcfType) (n m p q : nat) (R : 'M[F]_p) (env env' : env_mx F),
    R *m R^T = 1%:M ->
    rc_Xtr env' n p = rc_Xtr env n p *m R -> rc_Xte env' m p = rc_Xte env m p *m R ->
    rc_Ytr env' n q = rc_Ytr env n q -> rc_Yte env' m q = rc_Yte env m q ->
    rc_alpha env' = rc_alpha env ->
    gram (Xs_tr n p env) (rc_alpha env) \in unitmx ->
    eval_mx env (ridge_hyp_prog n p q) = 0 -> eval_mx env' (ridge_hyp_prog n p q) = 0 ->
    eval_mx env' (gre_prog n m p q) = eval_mx env (gre_prog n m p q).
Proof.
  move=> F n m p q R env env' RR E1 E2 E3 E4 Ea Gu /ridge_hyp_eq0 H /ridge_hyp_eq0 H'.
  have [X1 X2 Y1 Y2] := rot_source_std RR E1 E2 E3 E4; rewrite X1 Y1 Ea in H'.
  rewrite !greE X2 Y2; exact: gre_rot_source _ _ Gu H _ _ RR H'.
Qed.
Print Assumptions C13_gre_source_rotation.

(* ... and of the target space, for an estimator with fixed regularisation *)
Theorem C13_gre_target_rotation :
  forall (F : rcfType) (n m p q : nat) (R : 'M[F]_q) (env env' : env_mx F),
    R *m R^T = 1%:M ->
    rc_Xtr env' n p = rc_Xtr env n p -> rc_Xte env' m p = rc_Xte env m p ->
    rc_Ytr env' n q = rc_Ytr env n q *m R -> rc_Yte env' m q = rc_Yte env m q *m R ->
    rc_alpha env' = rc_alpha env ->
    gram (Xs_tr n p env) (rc_alpha env) \in unitmx ->
    eval_mx env (ridge_hyp_prog n p q) = 0 -> eval_mx env' (ridge_hyp_prog n p q) = 0 ->
    eval_mx env' (gre_prog n m p q) = eval_mx env (gre_prog n m p q).
Proof.
  move=> F n m p q R env env' RR E1 E2 E3 E4 Ea Gu /ridge_hyp_eq0 H /ridge_hyp_eq0 H'.
  have [X1 X2 Y1 Y2] := rot_target_std RR E1 E2 E3 E4; rewrite X1 Y1 Ea in H'.
  rewrite !greE X2 Y2; exact: gre_rot_target _ _ Gu H _ _ RR H'.
Qed.
Print Assumptions C13_gre_target_rotation.

(* LRE under a source rotation: the squared distances that order the neighbours are
   unchanged (same admissible neighbour sets), and for the same neighbour set the value is
   unchanged (local ridge contract with a unique solution) *)
Theorem C13_lre_source_rotation :
  forall (F : rcfType) (n m p q k : nat) (R : 'M[F]_p) (env env' : env_mx F),
    R *m R^T = 1%:M ->
    rc_Xtr env' n p = rc_Xtr env n p *m R -> rc_Xte env' m p = rc_Xte env m p *m R ->
    rc_Ytr env' n q = rc_Ytr env n q -> rc_Yte env' m q = rc_Yte env m q ->
    rc_alpha env' = rc_alpha env -> rc_Sel env' k n = rc_Sel env k n -> rc_ei env' m = rc_ei env m ->
    gram (center (LX n p env k) (LX n p env k)) (rc_alpha env) \in unitmx ->
    eval_mx env (lre_hyp_prog n p q k) = 0 -> eval_mx env' (lre_hyp_prog n p q k) = 0 ->
    (forall i j, (eval_mx env' (sqdist_prog n m p)) i j = (eval_mx env (sqdist_prog n m p)) i j)
    /\ eval_mx env' (lre_prog n m p q k) = eval_mx env (lre_prog n m p q k).
Proof.
  move=> F n m p q k R env env' RR E1 E2 E3 E4 Ea ES Ee Gu /lre_hyp_eq0 H /lre_hyp_eq0 H'.
  have [X1 X2 Y1 Y2] := rot_source_std RR E1 E2 E3 E4; rewrite /LX /LY X1 Y1 ES Ea mulmxA in H'.
  rewrite !sqdistE !lreE /LX /LY X1 X2 Y1 Y2 ES Ee (sqdist_orth _ _ RR) !mulmxA; split=> [//|].
  exact: lre_rot_source _ _ Gu H _ _ RR H'.
Qed.
Print Assumptions C13_lre_source_rotation.

(* GRD under a source rotation — PARTIAL: under the contract that Omega is the UNIQUE orthogonal
   minimiser of the original padded Procrustes problem; that contract is satisfiable only where
   the padded problem has a unique solution (generic for p <= q, never for p >= q + 2, where only
   the row norms - not Omega - are determined).  C13_grd_source_rotation below has the full
   statement under the numerically checked factor contract; the hypotheses of the two are not
   comparable. *)
Theorem C13_grd_source_rotation_partial :
  forall (F : rcfType) (n m p q : nat) (R : 'M[F]_p) (r : nat) (env env' : env_mx F),
    R *m R^T = 1%:M -> rc_Ep env p r *m (rc_Ep env p r)^T = 1%:M ->
    rc_Xtr env' n p = rc_Xtr env n p *m R -> rc_Xte env' m p = rc_Xte env m p *m R ->
    rc_Ytr env' n q = rc_Ytr env n q -> rc_Yte env' m q = rc_Yte env m q ->
    rc_alpha env' = rc_alpha env ->
    rc_Ep env' p r = rc_Ep env p r -> rc_Eq env' q r = rc_Eq env q r ->
    gram (Xs_tr n p env) (rc_alpha env) \in unitmx ->
    eval_mx env (ridge_hyp_prog n p q) = 0 -> eval_mx env' (ridge_hyp_prog n p q) = 0 ->
    (rc_Om env r)^T *m rc_Om env r = 1%:M -> (rc_Om env' r)^T *m rc_Om env' r = 1%:M ->
    (forall O2 : 'M[F]_r, O2^T *m O2 = 1%:M ->
       fro2 (Xs_tr n p env' *m rc_Ep env' p r *m rc_Om env' r - Xs_tr n p env' *m rc_W env' p q *m rc_Eq env' q r)
       <= fro2 (Xs_tr n p env' *m rc_Ep env' p r *m O2 - Xs_tr n p env' *m rc_W env' p q *m rc_Eq env' q r)) ->
    (forall O2 : 'M[F]_r, O2^T *m O2 = 1%:M ->
       fro2 (Xs_tr n p env *m rc_Ep env p r *m O2 - Xs_tr n p env *m rc_W env p q *m rc_Eq env q r)
       <= fro2 (Xs_tr n p env *m rc_Ep env p r *m rc_Om env r - Xs_tr n p env *m rc_W env p q *m rc_Eq env q r) ->
       O2 = rc_Om env r) ->
    eval_mx env' (grd_prog n m p q r) = eval_mx env (grd_prog n m p q r).
Proof.
  move=> F n m p q R r env env' RR EE E1 E2 E3 E4 Ea EEp EEq Gu /ridge_hyp_eq0 H /ridge_hyp_eq0 H' OO OO'.
  have [X1 X2 Y1 _] := rot_source_std RR E1 E2 E3 E4; rewrite X1 Y1 Ea in H'.
  rewrite !grdE X1 X2 EEp EEq (ridge_rot_source RR Gu H H') !(mulmxA _ R^T) !(mulmxKt _ RR) => Hmin Huniq.
  by rewrite (proc_uniq_rot_source EE _ RR OO OO' Hmin Huniq).
Qed.
Print Assumptions C13_grd_source_rotation_partial.

(* evaluated on the training set the global GRE never exceeds 1: ridge / least squares ... *)
Theorem C13_train_bound :
  forall (F : rcfType) (n p q : nat) (env : env_mx F),
    (0 < n)%N -> rc_Xte env n p = rc_Xtr env n p -> rc_Yte env n q = rc_Ytr env n q ->
    0 < varsum (rc_Ytr env n q) -> 0 <= rc_alpha env ->
    eval_mx env (ridge_hyp_prog n p q) = 0 ->
    (eval_mx env (global_prog (gre_prog n n p q))) ord0 ord0 <= 1.
Proof.
  move=> F n p q env n0 EX EY vy a0 /ridge_hyp_eq0 H; apply: train_bound_core => //.
  exact: ridge_bound a0 H.
Qed.
Print Assumptions C13_train_bound.

(* ... and singular-value cut-off estimators (the default Ridge2FoldCV configuration) *)
Theorem C13_train_bound_cutoff :
  forall (F : rcfType) (n p q : nat) (env : env_mx F) (c : nat),
    (0 < n)%N -> rc_Xte env n p = rc_Xtr env n p -> rc_Yte env n q = rc_Ytr env n q ->
    0 < varsum (rc_Ytr env n q) -> cutoff_contract n p q env c ->
    (eval_mx env (global_prog (gre_prog n n p q))) ord0 ord0 <= 1.
Proof.
  move=> F n p q env c n0 EX EY vy Hc; apply: train_bound_core => //.
  rewrite (cutoff_fit Hc); exact: proj_bound (cutoff_orth Hc).
Qed.
Print Assumptions C13_train_bound_cutoff.

(* LRE that uses all n training points as neighbours (the selection is a permutation: every
   training row exactly once, in any order) with an order-independent estimator (ridge
   contract, unique solution) equals the pointwise GRE of the same test point *)
Theorem C13_lre_is_gre :
  forall (F : rcfType) (n m p q : nat) (env : env_mx F) (i : 'I_m),
    (0 < n)%N ->
    (rc_Sel env n n)^T *m rc_Sel env n n = 1%:M -> ones F 1 n *m rc_Sel env n n = ones F 1 n ->
    rc_ei env m = delta_mx ord0 i ->
    gram (Xs_tr n p env) (rc_alpha env) \in unitmx ->
    eval_mx env (ridge_hyp_prog n p q) = 0 -> eval_mx env (lre_hyp_prog n p q n) = 0 ->
    (eval_mx env (lre_prog n m p q n)) ord0 ord0 = (eval_mx env (gre_prog n m p q)) i ord0.
Proof. exact recon_lre_is_gre. Qed.
Print Assumptions C13_lre_is_gre.

(* the selection contract of C13_lre_is_gre holds for every ordering of the training set: a
   neighbour list enumerating a permutation s yields perm_mx s, which meets both hypotheses *)
Theorem C13_selection_is_permutation :
  forall (F : rcfType) (n : nat) (idx : seq nat) (s : 'S_n),
    size idx = n -> (forall t : 'I_n, List.nth t idx 0%N = s t) ->
    bmat_mx F n n (sel_rows n idx) = perm_mx s /\
    ((perm_mx s : 'M[F]_n)^T *m perm_mx s = 1%:M /\ ones F 1 n *m perm_mx s = ones F 1 n).
Proof. by move=> F n idx s sz Hs; split; [exact: sel_bridge | exact: perm_sel]. Qed.
Print Assumptions C13_selection_is_permutation.

(* GRD is defined for every pair of feature dimensions (X wider, equal, narrower than Y):
   both predictions are compared in r columns, zero-padded ([padded], r = max p q in the
   driver); the padding matrices of the driver are the embeddings assumed here *)
Theorem C13_all_widths :
  forall (F : rcfType) (n m p q : nat) (env : env_mx F) (r : nat),
    rc_Ep env p r = embed_mx F p r -> rc_Eq env q r = embed_mx F q r ->
    eval_mx env (grd_prog n m p q r)
    = rownorm (padded r (Xs_te n m p env *m rc_W env p q)
               - padded r (Xs_te n m p env) *m rc_Om env r).
Proof. by move=> F n m p q env r EEp EEq; rewrite grdE EEp EEq !padded_embed. Qed.
Print Assumptions C13_all_widths.

Theorem C13_padding_matrices :
  forall (F : rcfType) (p r : nat), bmat_mx F p r (embed_rows p r) = embed_mx F p r.
Proof. exact embed_bridge. Qed.
Print Assumptions C13_padding_matrices.

(* ... which is false for the code as written before fixes/F11_grd_wide_source.diff: the
   unpadded difference (m x q) - (m x max p q) raises for p > q >= 2 *)
Theorem C13_all_widths_refuted : exists p q : nat, (0 < q)%coq_nat /\ old_grd_cols p q = None.
Proof. exact F11_old_grd_refuted. Qed.
Print Assumptions C13_all_widths_refuted.

(* X[train_idx], X[test_idx]: rows in index order; explicit, default and overlapping index
   lists are all just lists *)
Theorem C13_row_selection :
  forall (A : Type) (idx : list nat) (X : list (list A)),
    length (select_rows idx X) = length idx /\
    forall t, (t < length idx)%coq_nat ->
      List.nth t (select_rows idx X) nil = List.nth (List.nth t idx 0%N) X nil.
Proof. exact select_rows_spec. Qed.
Print Assumptions C13_row_selection.

(* non-vacuity: over every real closed field a concrete environment (two samples
   X = Y = [[0],[2]], train = test, W = [[1]], alpha = 0) meets the hypotheses of
   C13_gre_zero, C13_train_bound and the GRE rotation theorems *)
Example C13_nonvacuous :
  forall F : rcfType,
    let env := tiny_recon_env F in
    [/\ rc_Ytr env 2 1 = rc_Xtr env 2 1 *m 1%:M, rc_Yte env 2 1 = rc_Xte env 2 1 *m 1%:M,
        rc_Xte env 2 1 = rc_Xtr env 2 1 /\ rc_Yte env 2 1 = rc_Ytr env 2 1,
        0 < varsum (rc_Xtr env 2 1) /\ 0 < varsum (rc_Ytr env 2 1)
      & [/\ rc_alpha env = 0, eval_mx env (ridge_hyp_prog 2 1 1) = 0
          & gram (Xs_tr 2 1 env) 0 \in unitmx]].
Proof. exact tiny_recon_ok. Qed.

(* the contract the correspondence evaluates for OrthogonalRegression(use_orthogonal_projector=
   False) - Omega orthogonal, Omega^T M = L^T L - implies that Omega is a GLOBAL minimiser of
   the zero-padded Procrustes problem (no spectral theorem needed) *)
Theorem C13_procrustes_contract_sufficient :
  forall (F : rcfType) (n p q r : nat) (env : env_mx F),
    proc_contract n p q r env ->
    forall O2 : 'M[F]_r, O2^T *m O2 = 1%:M ->
      fro2 (Xs_tr n p env *m rc_Ep env p r *m rc_Om env r - Xs_tr n p env *m rc_W env p q *m rc_Eq env q r)
      <= fro2 (Xs_tr n p env *m rc_Ep env p r *m O2 - Xs_tr n p env *m rc_W env p q *m rc_Eq env q r).
Proof.
  by move=> F n p q r env /proc_contractP [OO HP] O2 O22; apply: proc_sufficient OO HP O22.
Qed.
Print Assumptions C13_procrustes_contract_sufficient.

(* GRD is a function of the data: whichever solution of the contract the orthogonal regression
   returns (it is not unique for X wider than Y), the pointwise values are the same - training
   source of full column rank, p <= r *)
Theorem C13_grd_determined :
  forall (F : rcfType) (n m p q r : nat) (env env' : env_mx F),
    rc_Xtr env' n p = rc_Xtr env n p -> rc_Xte env' m p = rc_Xte env m p ->
    rc_W env' p q = rc_W env p q ->
    rc_Ep env' p r = rc_Ep env p r -> rc_Eq env' q r = rc_Eq env q r ->
    rc_Ep env p r *m (rc_Ep env p r)^T = 1%:M ->
    gram (Xs_tr n p env) 0 \in unitmx ->
    proc_contract n p q r env -> proc_contract n p q r env' ->
    eval_mx env' (grd_prog n m p q r) = eval_mx env (grd_prog n m p q r).
Proof.
  move=> F n m p q r env env' E1 E2 EW EEp EEq EE Gu /proc_contractP [OO HP] /proc_contractP [OO'].
  rewrite !grdE /proc_M /Xs_tr /Xs_te E1 E2 EW EEp EEq => HP'.
  exact: (grd_determined_mx _ EE Gu OO' OO HP' HP).
Qed.
Print Assumptions C13_grd_determined.

(* GRD is unchanged by a rotation or reflection of the source space - FULL statement: every
   pair of widths (E_p E_p^T = I is p <= r = max p q), no uniqueness assumption on Omega *)
Theorem C13_grd_source_rotation :
  forall (F : rcfType) (n m p q r : nat) (R : 'M[F]_p) (env env' : env_mx F),
    R *m R^T = 1%:M -> rc_Ep env p r *m (rc_Ep env p r)^T = 1%:M ->
    rc_Xtr env' n p = rc_Xtr env n p *m R -> rc_Xte env' m p = rc_Xte env m p *m R ->
    rc_Ytr env' n q = rc_Ytr env n q -> rc_Yte env' m q = rc_Yte env m q ->
    rc_alpha env' = rc_alpha env ->
    rc_Ep env' p r = rc_Ep env p r -> rc_Eq env' q r = rc_Eq env q r ->
    gram (Xs_tr n p env) (rc_alpha env) \in unitmx -> gram (Xs_tr n p env) 0 \in unitmx ->
    eval_mx env (ridge_hyp_prog n p q) = 0 -> eval_mx env' (ridge_hyp_prog n p q) = 0 ->
    proc_contract n p q r env -> proc_contract n p q r env' ->
    eval_mx env' (grd_prog n m p q r) = eval_mx env (grd_prog n m p q r).
Proof.
  move=> F n m p q r R env env' RR EE E1 E2 E3 E4 Ea EEp EEq Gu Gu0 /ridge_hyp_eq0 H /ridge_hyp_eq0 H'.
  have [X1 X2 Y1 _] := rot_source_std RR E1 E2 E3 E4; rewrite X1 Y1 Ea in H'.
  move=> /proc_contractP [OO HP] /proc_contractP [OO']; rewrite !grdE /proc_M X1 X2 EEp EEq.
  rewrite (ridge_rot_source RR Gu H H') !(mulmxA _ R^T) !(mulmxKt _ RR) => HP'.
  exact: grd_rot_source_mx RR EE Gu0 OO OO' HP HP'.
Qed.
Print Assumptions C13_grd_source_rotation.

(* ... and of the target space, for an estimator with fixed regularisation (q <= r) *)
Theorem C13_grd_target_rotation :
  forall (F : rcfType) (n m p q r : nat) (R : 'M[F]_q) (env env' : env_mx F),
    R *m R^T = 1%:M ->
    rc_Ep env p r *m (rc_Ep env p r)^T = 1%:M -> rc_Eq env q r *m (rc_Eq env q r)^T = 1%:M ->
    rc_Xtr env' n p = rc_Xtr env n p -> rc_Xte env' m p = rc_Xte env m p ->
    rc_Ytr env' n q = rc_Ytr env n q *m R -> rc_Yte env' m q = rc_Yte env m q *m R ->
    rc_alpha env' = rc_alpha env ->
    rc_Ep env' p r = rc_Ep env p r -> rc_Eq env' q r = rc_Eq env q r ->
    gram (Xs_tr n p env) (rc_alpha env) \in unitmx -> gram (Xs_tr n p env) 0 \in unitmx ->
    eval_mx env (ridge_hyp_prog n p q) = 0 -> eval_mx env' (ridge_hyp_prog n p q) = 0 ->
    proc_contract n p q r env -> proc_contract n p q r env' ->
    eval_mx env' (grd_prog n m p q r) = eval_mx env (grd_prog n m p q r).
Proof.
  move=> F n m p q r R env env' RR EE EEq1 E1 E2 E3 E4 Ea EEp EEq Gu Gu0 /ridge_hyp_eq0 H /ridge_hyp_eq0 H'.
  have [X1 X2 Y1 _] := rot_target_std RR E1 E2 E3 E4; rewrite X1 Y1 Ea in H'.
  move=> /proc_contractP [OO HP] /proc_contractP [OO']; rewrite !grdE /proc_M X1 X2 EEp EEq.
  rewrite (ridge_rot_target Gu H H') => HP'.
  exact: grd_rot_target_mx RR EE EEq1 Gu0 OO OO' HP HP'.
Qed.
Print Assumptions C13_grd_target_rotation.

(* LRE under a target rotation: same neighbour-ordering distances (they only see the source),
   same value for the same neighbour set (local ridge contract with a unique solution) *)
Theorem C13_lre_target_rotation :
  forall (F : rcfType) (n m p q k : nat) (R : 'M[F]_q) (env env' : env_mx F),
    R *m R^T = 1%:M ->
    rc_Xtr env' n p = rc_Xtr env n p -> rc_Xte env' m p = rc_Xte env m p ->
    rc_Ytr env' n q = rc_Ytr env n q *m R -> rc_Yte env' m q = rc_Yte env m q *m R ->
    rc_alpha env' = rc_alpha env -> rc_Sel env' k n = rc_Sel env k n -> rc_ei env' m = rc_ei env m ->
    gram (center (LX n p env k) (LX n p env k)) (rc_alpha env) \in unitmx ->
    eval_mx env (lre_hyp_prog n p q k) = 0 -> eval_mx env' (lre_hyp_prog n p q k) = 0 ->
    (forall i j, (eval_mx env' (sqdist_prog n m p)) i j = (eval_mx env (sqdist_prog n m p)) i j)
    /\ eval_mx env' (lre_prog n m p q k) = eval_mx env (lre_prog n m p q k).
Proof.
  move=> F n m p q k R env env' RR E1 E2 E3 E4 Ea ES Ee Gu /lre_hyp_eq0 H /lre_hyp_eq0 H'.
  have [X1 X2 Y1 Y2] := rot_target_std RR E1 E2 E3 E4; rewrite /LX /LY X1 Y1 ES Ea mulmxA in H'.
  rewrite !sqdistE !lreE /LX /LY X1 X2 Y1 Y2 ES Ee !mulmxA; split=> [//|].
  exact: lre_rot_target _ _ Gu H _ _ RR H'.
Qed.
Print Assumptions C13_lre_target_rotation.

(* GRD(X, XQ) = 0 with the optimality of Omega derived from the checked contract (C13_grd_zero
   assumes it) *)
Theorem C13_grd_zero_checked :
  forall (F : rcfType) (n m p : nat) (env : env_mx F) (Q : 'M[F]_p),
    Q *m Q^T = 1%:M ->
    rc_Ytr env n p = rc_Xtr env n p *m Q -> rc_Yte env m p = rc_Xte env m p *m Q ->
    0 < varsum (rc_Xtr env n p) ->
    rc_alpha env = 0 -> eval_mx env (ridge_hyp_prog n p p) = 0 ->
    gram (Xs_tr n p env) 0 \in unitmx ->
    rc_Ep env p p = 1%:M -> rc_Eq env p p = 1%:M ->
    proc_contract n p p p env ->
    eval_mx env (grd_prog n m p p p) = 0.
Proof.
  move=> F n m p env Q QQ Etr Ete vx a0 Hr Gu EEp EEq /proc_contractP [OO]; rewrite /proc_M => HP.
  apply: (recon_grd_zero QQ Etr Ete vx a0 Hr Gu EEp EEq) => Om' OO'.
  by have := proc_sufficient OO HP OO'; rewrite EEp EEq !mulmx1.
Qed.
Print Assumptions C13_grd_zero_checked.

(* check_global_reconstruction_measures_input: explicit indices are passed through, the default
   split is the oracle pair, a missing index set is np.setdiff1d(arange(n), given): increasing,
   exactly the positions below n that the given set omits *)
Theorem C13_index_resolution :
  forall (n : nat) (train test : option (list nat)) (dflt : list nat * list nat),
    let res := resolve_idx n train test dflt in
    match train, test with
    | Some tr, Some te => res = (tr, te)
    | None, None => res = dflt
    | Some tr, None =>
        fst res = tr /\ Sorted.StronglySorted Peano.lt (snd res) /\
        (forall i, List.In i (snd res) <-> ((i < n)%coq_nat /\ ~ List.In i tr))
    | None, Some te =>
        snd res = te /\ Sorted.StronglySorted Peano.lt (fst res) /\
        (forall i, List.In i (fst res) <-> ((i < n)%coq_nat /\ ~ List.In i te))
    end.
Proof. exact resolve_idx_spec. Qed.
Print Assumptions C13_index_resolution.

(* ... so with one index set given, train and test are disjoint and cover range(n) *)
Theorem C13_index_partition :
  forall (n : nat) (idx : list nat) (i : nat),
    (i < n)%coq_nat ->
    (List.In i idx \/ List.In i (complement n idx)) /\ ~ (List.In i idx /\ List.In i (complement n idx)).
Proof. exact resolve_idx_partition. Qed.
Print Assumptions C13_index_partition.

(* the two assertions; argsort(...)[:n_local_points] uses min(n_local_points, n_train) rows *)
Theorem C13_guards :
  forall nX nY k ntrain : nat,
    (global_guard nX nY = true <-> nX = nY) /\
    (local_guard nX nY k = true <-> ((k <= nX)%coq_nat /\ nX = nY)) /\
    (eff_k k ntrain <= ntrain)%coq_nat /\ ((k <= ntrain)%coq_nat -> eff_k k ntrain = k) /\
    ((ntrain <= k)%coq_nat -> eff_k k ntrain = ntrain).
Proof. exact guards_spec. Qed.
Print Assumptions C13_guards.

(* non-vacuity of the Procrustes contract and of the hypotheses of the GRD rotation theorems: the
   tiny environment with Omega = E_p = E_q = 1, L = sqrt 2 (M = Xs^T Xs = 2) *)
Example C13_nonvacuous_procrustes :
  forall F : rcfType,
    let env := tiny_recon_env2 F in
    [/\ proc_contract 2 1 1 1 env, rc_Ep env 1 1 *m (rc_Ep env 1 1)^T = 1%:M,
        rc_Eq env 1 1 *m (rc_Eq env 1 1)^T = 1%:M, gram (Xs_tr 2 1 env) 0 \in unitmx
      & rc_alpha env = 0 /\ eval_mx env (ridge_hyp_prog 2 1 1) = 0].
Proof. exact tiny_recon2_ok. Qed.
