(* C04 - PCovR interpolates optimally and monotonically between PCA and regression.
   Statements; a proof is `exact <lemma of Proofs/>` or the few lines that instantiate one.

   Model: Model/PCovR.v.  loss_prog n m p k Q is the mixed objective
       a |X - Q Q^T X|^2 + (1 - a) |Yh - Q Q^T Yh|^2     (squared Frobenius norms)
   of the k-dimensional subspace of sample space spanned by the orthonormal columns of Q;
   lossx_prog / lossy_prog are its two parts.  eVs is PCovR's own subspace: the top-k
   eigenvectors of the modified Gram matrix K~ = kern_prog returned by the svd oracle
   (hypotheses [fit_oracle], see Properties/C14.v).  All statements hold over an ARBITRARY
   real closed field and for ALL shapes.  [mixed_loss], [proj_loss] are the same quantities
   on plain matrices (C04_loss_formula links them to the programs).                          *)
From mathcomp Require Import all_ssreflect all_algebra.
From Verif Require Import MExp MExpMx PCovR PCovRC04 PCovRP PCovRProg KyFan C14Thm C04Thm C14ExtP
  PCovRExample C04ExtP.
Import GRing.Theory Num.Theory.
Local Open Scope ring_scope.

Theorem C04_loss_formula :
  forall (F : rcfType) (n m p k : nat) (env : env_mx F) (Q : mexp n k),
    (eval_mx env (loss_prog n m p k Q)) ord0 ord0
    = mixed_loss (e_X n m env) (e_Yh n p env) (e_a env) (eval_mx env Q).
Proof. exact loss_formula. Qed.
Print Assumptions C04_loss_formula.

Theorem C04_mixed_loss_meaning :
  forall (F : rcfType) (n m p k : nat) (X : 'M[F]_(n, m)) (Yh : 'M[F]_(n, p)) (a : F) (Q : 'M[F]_(n, k)),
    mixed_loss X Yh a Q
    = a * \tr ((X - Q *m (Q^T *m X))^T *m (X - Q *m (Q^T *m X)))
      + (1 - a) * \tr ((Yh - Q *m (Q^T *m Yh))^T *m (Yh - Q *m (Q^T *m Yh))).
Proof. by []. Qed.
Print Assumptions C04_mixed_loss_meaning.

(* trace form of the objective *)
Theorem C04_loss_trace :
  forall (F : rcfType) (n m p k : nat) (env : env_mx F) (Q : mexp n k),
    (eval_mx env Q)^T *m eval_mx env Q = 1%:M ->
    (eval_mx env (loss_prog n m p k Q)) ord0 ord0
    = \tr (eval_mx env (kern_prog n m p))
      - \tr ((eval_mx env Q)^T *m eval_mx env (kern_prog n m p) *m eval_mx env Q).
Proof. by move=> F n m p k env Q hQ; rewrite loss_formula kern_formula; exact: mixed_loss_trace. Qed.
Print Assumptions C04_loss_trace.

(* scalar rearrangement lemma and Ky Fan's maximum principle *)
Theorem C04_rearrange :
  forall (F : rcfType) (n k : nat) (lam p : 'I_n -> F),
    (k <= n)%N -> (forall i j : 'I_n, (i <= j)%N -> lam j <= lam i) ->
    (forall i, 0 <= p i) -> (forall i, p i <= 1) -> \sum_i p i = k%:R ->
    \sum_i lam i * p i <= \sum_(i < n | (i < k)%N) lam i.
Proof. exact rearrange. Qed.
Print Assumptions C04_rearrange.

Theorem C04_kyfan :
  forall (F : rcfType) (n k : nat) (K U : 'M[F]_n) (L : 'cV[F]_n) (Q : 'M[F]_(n, k)),
    U^T *m U = 1%:M -> K *m U = U *m diag_mx L^T ->
    (forall i j : 'I_n, (i <= j)%N -> L j 0 <= L i 0) ->
    Q^T *m Q = 1%:M ->
    \tr (Q^T *m K *m Q) <= \sum_(i < n | (i < k)%N) L i 0.
Proof. exact kyfan. Qed.
Print Assumptions C04_kyfan.

(* optimality: no k-dimensional subspace of sample space - PCA's, the regression's or any
   other - has a smaller mixed loss than PCovR's.  (U, L) is the full eigen-decomposition of
   K~, decreasing, whose first k eigenvalues are the ones the oracle returned.               *)
Theorem C04_optimal :
  forall (F : rcfType) (n m p k : nat) (env : env_mx F) (U : 'M[F]_n) (L : 'cV[F]_n)
         (kn : (k <= n)%N) (Q : mexp n k),
    fit_oracle n m p k env true ->
    U^T *m U = 1%:M -> eval_mx env (kern_prog n m p) *m U = U *m diag_mx L^T ->
    (forall i j : 'I_n, (i <= j)%N -> L j 0 <= L i 0) ->
    (forall i : 'I_k, e_S k env i 0 = L (widen_ord kn i) 0) ->
    (eval_mx env Q)^T *m eval_mx env Q = 1%:M ->
    (eval_mx env (loss_prog n m p k (eVs n k))) ord0 ord0
    <= (eval_mx env (loss_prog n m p k Q)) ord0 ord0.
Proof.
  move=> F n m p k env U L kn Q /oracle_sample[_ _ v1 v2] u1 u2 hs htop hQ.
  by rewrite loss_le; rewrite kern_formula in u2; exact: (eig_optimal u1 u2 hs htop v1 v2 hQ).
Qed.
Print Assumptions C04_optimal.

(* the subspace eVs is the one the fitted estimator works with: inverse_transform(transform(X))
   and predict(T = transform(X)) are the orthogonal projections of X and Y onto it *)
Theorem C04_own_subspace :
  forall (F : rcfType) (n m p k : nat) (env : env_mx F),
    centred n m env -> fit_oracle n m p k env true -> (forall i, e_tol env < e_S k env i 0) ->
    let T := transform_prog n m p k true (eX n m) in
    eval_mx env (inverse_prog n m k true T) = e_Vs n k env *m ((e_Vs n k env)^T *m e_X n m env)
    /\ eval_mx env (predict_t_prog n m p k true T) = e_Vs n k env *m ((e_Vs n k env)^T *m e_Y n p env).
Proof.
  move=> F n m p k env hc ho hret T; have [-> ->] := own_projector hc ho.
  by rewrite /mproj -/(retained_mask k env) (mask_eq1 hret) mulmx1 -!mulmxA.
Qed.
Print Assumptions C04_own_subspace.

(* mixing = 1: PCA.  components_ = pxt_^T are orthonormal eigenvectors of the covariance
   X^T X for the retained eigenvalues, and inverse_transform multiplies by components_.      *)
Theorem C04_pca_limit_sample :
  forall (F : rcfType) (n m p k : nat) (env : env_mx F),
    e_a env = 1 -> fit_oracle n m p k env true ->
    let P := eval_mx env (pxt_prog n m p k true) in
    [/\ P^T *m P = retained_mask k env,
        ((e_X n m env)^T *m e_X n m env) *m P = P *m diag_mx (e_S k env)^T
      & eval_mx env (ptx_prog n m k true) = P^T].
Proof. exact pca_limit_sample. Qed.
Print Assumptions C04_pca_limit_sample.

Theorem C04_pca_limit_feature :
  forall (F : rcfType) (n m p k : nat) (env : env_mx F),
    e_a env = 1 -> fit_oracle n m p k env false ->
    let P := eval_mx env (pxt_prog n m p k false) in
    [/\ P = e_Vf m k env *m retained_mask k env,
        ((e_X n m env)^T *m e_X n m env) *m e_Vf m k env = e_Vf m k env *m diag_mx (e_S k env)^T
      & eval_mx env (ptx_prog n m k false) = P^T].
Proof. exact pca_limit_feature. Qed.
Print Assumptions C04_pca_limit_feature.

(* mixing = 0, exact least squares, k >= rank Yh: the predictions are the regression's *)
Theorem C04_regression_limit :
  forall (F : rcfType) (n m p k : nat) (env : env_mx F),
    centred n m env -> e_a env = 0 -> fit_oracle n m p k env true ->
    (* normal equations of the unregularised regression *)
    (e_X n m env)^T *m (e_Y n p env - e_Yh n p env) = 0 ->
    (* the retained eigenpairs reproduce K~ = Yh Yh^T  (k >= rank Yh) *)
    eval_mx env (kern_prog n m p)
    = e_Vs n k env *m dmap (fun x => g_mk (e_tol env) x * x) (e_S k env) *m (e_Vs n k env)^T ->
    eval_mx env (predict_x_prog n m p k true (eX n m)) = e_Yh n p env
    /\ eval_mx env (predict_t_prog n m p k true (transform_prog n m p k true (eX n m))) = e_Yh n p env.
Proof.
  move=> F n m p k env hc a0 ho hls hfull; have [_ hw _ _] := oracle_sample ho.
  exact: (regression_limit_both ho hw hc a0 hls hfull).
Qed.
Print Assumptions C04_regression_limit.

(* monotonicity in the mixing (exchange argument from optimality)
   abstract form: subspaces optimal for mixings a < b                                           *)
Theorem C04_monotone :
  forall (F : rcfType) (n m p k : nat) (X : 'M[F]_(n, m)) (Yh : 'M[F]_(n, p)) (a b : F)
         (Qa Qb : 'M[F]_(n, k)),
    0 <= a -> a < b -> b <= 1 ->
    Qa^T *m Qa = 1%:M -> Qb^T *m Qb = 1%:M ->
    (forall Q : 'M[F]_(n, k), Q^T *m Q = 1%:M -> mixed_loss X Yh a Qa <= mixed_loss X Yh a Q) ->
    (forall Q : 'M[F]_(n, k), Q^T *m Q = 1%:M -> mixed_loss X Yh b Qb <= mixed_loss X Yh b Q) ->
    proj_loss Qb X <= proj_loss Qa X /\ proj_loss Qa Yh <= proj_loss Qb Yh.
Proof. exact mixing_monotone. Qed.
Print Assumptions C04_monotone.

Theorem C04_full_fit_meaning :
  forall (F : rcfType) (n m p k : nat) (kn : (k <= n)%N) (e : env_mx F) (U : 'M[F]_n) (L : 'cV[F]_n),
    full_fit m p kn e U L <->
    [/\ fit_oracle n m p k e true,
        U^T *m U = 1%:M /\ eval_mx e (kern_prog n m p) *m U = U *m diag_mx L^T,
        forall i j : 'I_n, (i <= j)%N -> L j 0 <= L i 0
      & forall i : 'I_k, e_S k e i 0 = L (widen_ord kn i) 0].
Proof. by []. Qed.
Print Assumptions C04_full_fit_meaning.

(* program form: two fits (environments ea, eb) of the same X, Yh with mixings a < b *)
Theorem C04_monotone_fits :
  forall (F : rcfType) (n m p k : nat) (ea eb : env_mx F) (Ua Ub : 'M[F]_n) (La Lb : 'cV[F]_n)
         (kn : (k <= n)%N),
    e_X n m ea = e_X n m eb -> e_Yh n p ea = e_Yh n p eb ->
    0 <= e_a ea -> e_a ea < e_a eb -> e_a eb <= 1 ->
    full_fit m p kn ea Ua La -> full_fit m p kn eb Ub Lb ->
    (eval_mx eb (lossx_prog n m k (eVs n k))) ord0 ord0
      <= (eval_mx ea (lossx_prog n m k (eVs n k))) ord0 ord0
    /\ (eval_mx ea (lossy_prog n p k (eVs n k))) ord0 ord0
      <= (eval_mx eb (lossy_prog n p k (eVs n k))) ord0 ord0.
Proof. exact monotone_prog. Qed.
Print Assumptions C04_monotone_fits.

(* non-vacuity *)
Example C04_nonvacuous :
  forall F : rcfType,
    exists (ea eb : env_mx F) (U : 'M[F]_2) (La Lb : 'cV[F]_2) (Q : 'M[F]_(2, 1)),
      [/\ [/\ e_X 2 1 ea = e_X 2 1 eb, e_Yh 2 1 ea = e_Yh 2 1 eb & centred 2 1 ea],
          [/\ 0 <= e_a ea, e_a ea < e_a eb & e_a eb <= 1],
          full_fit 1 1 (isT : (1 <= 2)%N) ea U La, full_fit 1 1 (isT : (1 <= 2)%N) eb U Lb
        & Q^T *m Q = 1%:M].
Proof. exact ex_c04. Qed.
Print Assumptions C04_nonvacuous.

Example C04_nonvacuous_limits :
  forall F : rcfType,
    exists (e1 e0 : env_mx F),
      [/\ e_a e1 = 1, fit_oracle 2 1 1 1 e1 true, fit_oracle 2 1 1 1 e1 false
        & [/\ e_a e0 = 0, fit_oracle 2 1 1 1 e0 true, centred 2 1 e0,
              (e_X 2 1 e0)^T *m (e_Y 2 1 e0 - e_Yh 2 1 e0) = 0
            & eval_mx e0 (kern_prog 2 1 1)
              = e_Vs 2 1 e0 *m dmap (fun x => g_mk (e_tol e0) x * x) (e_S 1 e0) *m (e_Vs 2 1 e0)^T]].
Proof. exact ex_c04_limits. Qed.
Print Assumptions C04_nonvacuous_limits.

(* BOTH routes of fit, the losses a user observes, masked components.

   own_Q n m k env sp is PCovR's own subspace of sample space as an n x k matrix: V (sample-space
   route, sp = true) or X C^-1/2 V (feature-space route; Model/PCovRC04.v [ownq_prog] is the same
   as a program, C04_ownq_formula).  regressor_contract is Yhat = X W (part of fit_oracle in
   sample space, a separate hypothesis in feature space).                                     *)
Theorem C04_ownq_formula :
  forall (F : rcfType) (n m k : nat) (env : env_mx F) (sp : bool),
    eval_mx env (ownq_prog n m k sp) = own_Q n m k env sp.
Proof. exact ownq_formula. Qed.
Print Assumptions C04_ownq_formula.

Theorem C04_own_Q_meaning :
  forall (F : rcfType) (n m k : nat) (env : env_mx F) (sp : bool),
    own_Q n m k env sp
    = if sp then e_Vs n k env
      else e_X n m env *m f_A (e_tol env) (e_UC m env) (e_vC m env) *m e_Vf m k env.
Proof. by []. Qed.
Print Assumptions C04_own_Q_meaning.

(* whichever route: an orthonormal family of eigenvectors of K~ for the returned eigenvalues *)
Theorem C04_own_basis :
  forall (F : rcfType) (n m p k : nat) (env : env_mx F) (sp : bool),
    fit_oracle n m p k env sp -> regressor_contract n m p env ->
    (forall i, e_tol env < e_S k env i 0) ->
    (own_Q n m k env sp)^T *m own_Q n m k env sp = 1%:M
    /\ eval_mx env (kern_prog n m p) *m own_Q n m k env sp
       = own_Q n m k env sp *m diag_mx (e_S k env)^T.
Proof. exact own_basis. Qed.
Print Assumptions C04_own_basis.

(* whichever route, masked components ALLOWED: inverse_transform(transform(X)) and
   predict(T = transform(X)) are the orthogonal projections of X and Y onto the retained
   columns of own_Q  (C04_own_subspace: sample route, every component retained);
   regressor_contract is not used *)
Theorem C04_own_subspace_both :
  forall (F : rcfType) (n m p k : nat) (env : env_mx F) (sp : bool),
    fit_oracle n m p k env sp -> regressor_contract n m p env -> centred n m env ->
    let T := transform_prog n m p k sp (eX n m) in
    let Q := own_Q n m k env sp in
    eval_mx env (inverse_prog n m k sp T) = Q *m retained_mask k env *m Q^T *m e_X n m env
    /\ eval_mx env (predict_t_prog n m p k sp T) = Q *m retained_mask k env *m Q^T *m e_Y n p env.
Proof. by move=> F n m p k env sp ho _ hc; exact: own_subspace_both ho hc. Qed.
Print Assumptions C04_own_subspace_both.

(* optimality for the route fit actually took: in particular a FEATURE-space fit attains the
   optimum of the mixed objective over all k-dimensional subspaces of sample space *)
Theorem C04_optimal_both :
  forall (F : rcfType) (n m p k : nat) (env : env_mx F) (sp : bool),
    fit_oracle n m p k env sp -> regressor_contract n m p env ->
    forall (U : 'M[F]_n) (L : 'cV[F]_n) (kn : (k <= n)%N) (Qc : mexp n k),
    (forall i, e_tol env < e_S k env i 0) ->
    U^T *m U = 1%:M -> eval_mx env (kern_prog n m p) *m U = U *m diag_mx L^T ->
    (forall i j : 'I_n, (i <= j)%N -> L j 0 <= L i 0) ->
    (forall i : 'I_k, e_S k env i 0 = L (widen_ord kn i) 0) ->
    (eval_mx env Qc)^T *m eval_mx env Qc = 1%:M ->
    (eval_mx env (loss_prog n m p k (ownq_prog n m k sp))) ord0 ord0
    <= (eval_mx env (loss_prog n m p k Qc)) ord0 ord0.
Proof. exact optimal_both. Qed.
Print Assumptions C04_optimal_both.

(* the training losses as the user measures them,
     |X - inverse_transform(transform(X))|^2  and  |Y - predict(T = transform(X))|^2,
   are the projection losses of own_Q (regressor_contract is not used) *)
Theorem C04_observed_losses :
  forall (F : rcfType) (n m p k : nat) (env : env_mx F) (sp : bool),
    fit_oracle n m p k env sp -> regressor_contract n m p env ->
    centred n m env -> (forall i, e_tol env < e_S k env i 0) ->
    (eval_mx env (obs_lossx_prog n m p k sp)) ord0 ord0
      = proj_loss (own_Q n m k env sp) (e_X n m env)
    /\ (eval_mx env (obs_lossy_prog n m p k sp)) ord0 ord0
      = proj_loss (own_Q n m k env sp) (e_Y n p env).
Proof. by move=> F n m p k env sp ho _; exact: observed_losses ho. Qed.
Print Assumptions C04_observed_losses.

(* masked components allowed: the observed losses are the projection losses of the RETAINED
   columns of own_Q (program ownq_ret = ownq_prog times the 0/1 mask of the `s > tol` guards);
   regressor_contract is not used *)
Theorem C04_observed_losses_masked :
  forall (F : rcfType) (n m p k : nat) (env : env_mx F) (sp : bool),
    fit_oracle n m p k env sp -> regressor_contract n m p env -> centred n m env ->
    (eval_mx env (obs_lossx_prog n m p k sp)) ord0 ord0
      = (eval_mx env (lossx_prog n m k (ownq_ret n m k sp))) ord0 ord0
    /\ (eval_mx env (obs_lossy_prog n m p k sp)) ord0 ord0
      = proj_loss (own_Q n m k env sp *m retained_mask k env) (e_Y n p env).
Proof. by move=> F n m p k env sp ho _; exact: observed_losses_masked ho. Qed.
Print Assumptions C04_observed_losses_masked.

(* predict projects Y, the objective contains Yhat: for exact least squares the two losses differ
   by the constant |Y - Yhat|^2 (Pythagoras; the residual is orthogonal to the retained subspace) *)
Theorem C04_observed_regression_loss :
  forall (F : rcfType) (n m p k : nat) (env : env_mx F) (sp : bool),
    fit_oracle n m p k env sp -> regressor_contract n m p env ->
    centred n m env -> (forall i, e_tol env < e_S k env i 0) ->
    (e_X n m env)^T *m (e_Y n p env - e_Yh n p env) = 0 ->
    (eval_mx env (obs_lossy_prog n m p k sp)) ord0 ord0
    = (eval_mx env (lossy_prog n p k (ownq_prog n m k sp))) ord0 ord0
      + (eval_mx env (resid_ls_prog n p)) ord0 ord0.
Proof. exact observed_regression_loss. Qed.
Print Assumptions C04_observed_regression_loss.

(* mixing = 0 by EITHER route, masked components allowed (k > rank Yhat) *)
Theorem C04_regression_limit_both :
  forall (F : rcfType) (n m p k : nat) (env : env_mx F) (sp : bool),
    fit_oracle n m p k env sp -> regressor_contract n m p env ->
    centred n m env -> e_a env = 0 ->
    (e_X n m env)^T *m (e_Y n p env - e_Yh n p env) = 0 ->
    eval_mx env (kern_prog n m p)
    = own_Q n m k env sp *m dmap (fun x => g_mk (e_tol env) x * x) (e_S k env)
      *m (own_Q n m k env sp)^T ->
    eval_mx env (predict_x_prog n m p k sp (eX n m)) = e_Yh n p env
    /\ eval_mx env (predict_t_prog n m p k sp (transform_prog n m p k sp (eX n m))) = e_Yh n p env.
Proof. exact regression_limit_both. Qed.
Print Assumptions C04_regression_limit_both.

Theorem C04_full_fit_sp_meaning :
  forall (F : rcfType) (n m p k : nat) (kn : (k <= n)%N) (sp : bool) (e : env_mx F)
         (U : 'M[F]_n) (L : 'cV[F]_n),
    full_fit_sp m p kn sp e U L <->
    [/\ fit_oracle n m p k e sp /\ regressor_contract n m p e,
        centred n m e /\ (forall i, e_tol e < e_S k e i 0),
        U^T *m U = 1%:M /\ eval_mx e (kern_prog n m p) *m U = U *m diag_mx L^T,
        forall i j : 'I_n, (i <= j)%N -> L j 0 <= L i 0
      & forall i : 'I_k, e_S k e i 0 = L (widen_ord kn i) 0].
Proof. by []. Qed.
Print Assumptions C04_full_fit_sp_meaning.

(* "Consequently ... the training reconstruction loss of X is non-increasing and the training
   regression loss non-decreasing as mixing goes from 0 to 1" - on the OBSERVED losses, for two
   fits of the same data by ANY combination of routes *)
Theorem C04_monotone_observed_x :
  forall (F : rcfType) (n m p k : nat) (ea eb : env_mx F) (spa spb : bool)
         (Ua Ub : 'M[F]_n) (La Lb : 'cV[F]_n) (kn : (k <= n)%N),
    e_X n m ea = e_X n m eb -> e_Yh n p ea = e_Yh n p eb ->
    0 <= e_a ea -> e_a ea < e_a eb -> e_a eb <= 1 ->
    full_fit_sp m p kn spa ea Ua La -> full_fit_sp m p kn spb eb Ub Lb ->
    (eval_mx eb (obs_lossx_prog n m p k spb)) ord0 ord0
    <= (eval_mx ea (obs_lossx_prog n m p k spa)) ord0 ord0.
Proof. exact monotone_observed_x. Qed.
Print Assumptions C04_monotone_observed_x.

Theorem C04_monotone_observed_y :
  forall (F : rcfType) (n m p k : nat) (ea eb : env_mx F) (spa spb : bool)
         (Ua Ub : 'M[F]_n) (La Lb : 'cV[F]_n) (kn : (k <= n)%N),
    e_X n m ea = e_X n m eb -> e_Y n p ea = e_Y n p eb -> e_Yh n p ea = e_Yh n p eb ->
    0 <= e_a ea -> e_a ea < e_a eb -> e_a eb <= 1 ->
    full_fit_sp m p kn spa ea Ua La -> full_fit_sp m p kn spb eb Ub Lb ->
    (e_X n m ea)^T *m (e_Y n p ea - e_Yh n p ea) = 0 ->
    (eval_mx ea (obs_lossy_prog n m p k spa)) ord0 ord0
    <= (eval_mx eb (obs_lossy_prog n m p k spb)) ord0 ord0.
Proof. exact monotone_observed_y. Qed.
Print Assumptions C04_monotone_observed_y.

(* non-vacuity: a sample-space fit at mixing 1/3 and a feature-space fit at 2/3 of the same
   data meet every hypothesis of the two monotonicity theorems (and hence of C04_own_basis,
   C04_optimal_both, C04_observed_losses), and the feature-space regression limit has an instance *)
Example C04_nonvacuous_both_routes :
  forall F : rcfType,
    exists (ea eb : env_mx F) (U : 'M[F]_2) (L : 'cV[F]_2),
      [/\ [/\ e_X 2 1 ea = e_X 2 1 eb, e_Y 2 1 ea = e_Y 2 1 eb & e_Yh 2 1 ea = e_Yh 2 1 eb],
          [/\ 0 <= e_a ea, e_a ea < e_a eb & e_a eb <= 1],
          full_fit_sp 1 1 (isT : (1 <= 2)%N) true ea U L,
          full_fit_sp 1 1 (isT : (1 <= 2)%N) false eb U L
        & (e_X 2 1 ea)^T *m (e_Y 2 1 ea - e_Yh 2 1 ea) = 0].
Proof. exact ex_c04_ext. Qed.
Print Assumptions C04_nonvacuous_both_routes.

Example C04_nonvacuous_regression_limit_feature :
  forall F : rcfType,
    exists e0 : env_mx F,
      [/\ e_a e0 = 0, fit_oracle 2 1 1 1 e0 false /\ regressor_contract 2 1 1 e0, centred 2 1 e0,
          (e_X 2 1 e0)^T *m (e_Y 2 1 e0 - e_Yh 2 1 e0) = 0
        & eval_mx e0 (kern_prog 2 1 1)
          = own_Q 2 1 1 e0 false *m dmap (fun x => g_mk (e_tol e0) x * x) (e_S 1 e0)
            *m (own_Q 2 1 1 e0 false)^T].
Proof. exact ex_c04_reglimit_feature. Qed.
Print Assumptions C04_nonvacuous_regression_limit_feature.

(* A FRACTIONAL n_components (0 < f < 1, full solver).  Model/PCovRFrac.v mirrors
   _decompose_full: explained-variance ratios of ALL eigenvalues of the modified matrix, their
   cumulative sums, np.searchsorted(..., side="right") + 1.  Exact model over Q (below) and on
   binary64 (resolve_f, run against the implementation's n_components_ on every check).
   (Coq.Lists.List and QArith names are qualified: ssreflect's seq shadows nth / length.)     *)
From Coq Require QArith.
Local Notation q_of z p := (QArith_base.Qmake (BinInt.Z.of_nat z%N) (BinPos.Pos.of_nat p%N)).
From Verif Require PCovRFrac PCovRFracP.

(* the resolved k is the SMALLEST k >= 1 whose cumulative explained-variance ratio exceeds f:
   every shorter prefix has ratio <= f, the prefix of length k has ratio > f, no smaller k does *)
Theorem C04_fraction_resolution :
  forall (f : QArith_base.Q) (sv : list QArith_base.Q) (n1 : QArith_base.Q),
    let c := PCovRFrac.ratio_cumsum_q sv n1 in
    let k := PCovRFrac.resolve_q f sv n1 in
    Peano.le 1%N k
    /\ (forall j, Peano.lt (S j) k -> QArith_base.Qle (List.nth j c (q_of 0 1)) f)
    /\ (Peano.le k (List.length c) ->
        QArith_base.Qlt f (List.nth (Nat.sub k 1%N) c (q_of 0 1)))
    /\ (forall k', Peano.le 1%N k' /\ Peano.le k' (List.length c) ->
        QArith_base.Qlt f (List.nth (Nat.sub k' 1%N) c (q_of 0 1)) -> Peano.le k k').
Proof. exact PCovRFracP.resolve_q_spec. Qed.
Print Assumptions C04_fraction_resolution.

(* as soon as some cumulative ratio exceeds f (the last one is 1), k is at most the number of
   eigenvalues: the slices U[:, :k], S[:k], Vt[:k] are full *)
Theorem C04_fraction_bound :
  forall (f : QArith_base.Q) (sv : list QArith_base.Q) (n1 : QArith_base.Q) (i : nat),
    let c := PCovRFrac.ratio_cumsum_q sv n1 in
    Peano.lt i (List.length c) -> QArith_base.Qlt f (List.nth i c (q_of 0 1)) ->
    Peano.le (PCovRFrac.resolve_q f sv n1) (List.length c)
    /\ List.length c = List.length sv.
Proof.
  move=> f sv n1 i c hi hf; split; first exact: (PCovRFracP.resolve_q_bound f sv n1 i hi hf).
  exact: PCovRFracP.ratio_cumsum_q_length.
Qed.
Print Assumptions C04_fraction_bound.

(* non-vacuity and the side="right" corner: eigenvalues 5,3,1,1, f = 9/10 -> 4 components (the
   third cumulative ratio EQUALS f and still counts as "<= f"), f = 89/100 -> 3 *)
Example C04_nonvacuous_fraction :
  PCovRFrac.resolve_q (q_of 9 10)
    (List.map (fun z => q_of z 1) (5 :: 3 :: 1 :: 1 :: nil)%N) (q_of 3 1) = 4%N
  /\ PCovRFrac.resolve_q (q_of 89 100)
    (List.map (fun z => q_of z 1) (5 :: 3 :: 1 :: 1 :: nil)%N) (q_of 3 1) = 3%N.
Proof. by vm_compute. Qed.
Print Assumptions C04_nonvacuous_fraction.
