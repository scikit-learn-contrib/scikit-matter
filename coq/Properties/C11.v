(* C11 — StandardFlexibleScaler standardises w.r.t. the weighted training distribution.
   The statements; each is a lemma of Proofs/ScalerP.v or Proofs/ScalerObjP.v, or follows from
   those in a few lines.

   Model: Model/Scaler.v (the mexp programs of fit / transform / inverse_transform, run on
   binary64 against /repo by the check) and Model/ScalerMx.v (the same programs run by
   [eval_mx] over an arbitrary real closed field F, wrapped exactly like the Python code:
   [sc_fit_mx cfg rtol atol X w] is [None] when fit raises ValueError (fewer than two
   samples, or one of the two zero-variance guards fires) and [Some (mean_, scale_)]
   otherwise; [sc_transform_mx st Y] / [sc_inverse_mx st T] run the transform programs
   with the fitted state).  cfg = (with_mean, with_std, column_wise, sample_weight given).

   Vocabulary (Model/ScalerMx.v):
     wsum w      = sum_i w_i
     wmean w A   = row of  sum_i w_i A_ij / sum_i w_i
     wvar w A    = row of  sum_i w_i (A_ij - wmean_j)^2 / sum_i w_i
     sc_effw cfg w = w if sample weights are given, the all-ones vector otherwise
     sc_wok cfg w  = given sample weights have a non-zero sum
   All theorems: any real closed field, any n, d, k, any of the 8 flag combinations unless
   a flag is a hypothesis, any weights with non-zero sum (in particular non-negative
   weights with positive sum, zeros allowed).  `0 < atol`, `0 <= rtol` (the defaults are
   atol = 1e-12, rtol = 0) are what makes the accepted scale non-zero.                    *)
From Coq Require Import PrimFloat.
From mathcomp Require Import all_ssreflect all_algebra.
From Verif Require Import MExp MExpMx MxBox Scaler ScalerMx ScalerP.
From Verif Require Import ScalerObj ScalerObjMx ScalerObjP.
Set Implicit Arguments.
Unset Strict Implicit.
Unset Printing Implicit Defensive.
Import GRing.Theory Num.Theory.
Local Open Scope ring_scope.

(* centring on: the weighted column means of the transformed training data are zero *)
Theorem C11_mean_zero :
  forall (F : rcfType) (cfg : sc_cfg) (n d : nat) (rtol atol : F)
         (X : 'M[F]_(n, d)) (w : 'cV[F]_n) (st : 'rV[F]_d * 'rV[F]_d),
    sc_wok cfg w -> sc_fit_mx cfg rtol atol X w = Some st ->
    with_mean cfg -> 0 < atol -> 0 <= rtol ->
    wmean (sc_effw cfg w) (sc_transform_mx st X) = 0.
Proof. move=> F cfg n d rtol atol X w st ok fitS wm _ _; exact: sc_mean_zero fitS wm. Qed.
Print Assumptions C11_mean_zero.

(* scaling on, column-wise: every weighted column variance of the transformed training
   data is one (with or without centring) *)
Theorem C11_unit_variance_columnwise :
  forall (F : rcfType) (cfg : sc_cfg) (n d : nat) (rtol atol : F)
         (X : 'M[F]_(n, d)) (w : 'cV[F]_n) (st : 'rV[F]_d * 'rV[F]_d),
    sc_wok cfg w -> sc_fit_mx cfg rtol atol X w = Some st ->
    with_std cfg -> column_wise cfg -> 0 < atol -> 0 <= rtol ->
    wvar (sc_effw cfg w) (sc_transform_mx st X) = const_mx 1.
Proof. exact sc_unit_variance_columnwise. Qed.
Print Assumptions C11_unit_variance_columnwise.

(* scaling on, whole-matrix mode: the weighted column variances sum to one *)
Theorem C11_unit_total_variance :
  forall (F : rcfType) (cfg : sc_cfg) (n d : nat) (rtol atol : F)
         (X : 'M[F]_(n, d)) (w : 'cV[F]_n) (st : 'rV[F]_d * 'rV[F]_d),
    sc_wok cfg w -> sc_fit_mx cfg rtol atol X w = Some st ->
    with_std cfg -> ~~ column_wise cfg -> 0 < atol -> 0 <= rtol ->
    \sum_j (wvar (sc_effw cfg w) (sc_transform_mx st X)) ord0 j = 1.
Proof. exact sc_unit_total_variance. Qed.
Print Assumptions C11_unit_total_variance.

(* inverse_transform undoes transform on any data of any number of rows, and conversely *)
Theorem C11_inverse :
  forall (F : rcfType) (cfg : sc_cfg) (n d : nat) (rtol atol : F)
         (X : 'M[F]_(n, d)) (w : 'cV[F]_n) (st : 'rV[F]_d * 'rV[F]_d),
    sc_wok cfg w -> sc_fit_mx cfg rtol atol X w = Some st ->
    forall (k : nat) (Y : 'M[F]_(k, d)), 0 < atol -> 0 <= rtol ->
      sc_inverse_mx st (sc_transform_mx st Y) = Y.
Proof.
  move=> F cfg n d rtol atol X w st ok fitS k Y a0 r0.
  apply: sc_inverseK_nz => j; exact/lt0r_neq0/(fit_scale_pos ok fitS).
Qed.
Print Assumptions C11_inverse.

Theorem C11_inverse_converse :
  forall (F : rcfType) (cfg : sc_cfg) (n d : nat) (rtol atol : F)
         (X : 'M[F]_(n, d)) (w : 'cV[F]_n) (st : 'rV[F]_d * 'rV[F]_d),
    sc_wok cfg w -> sc_fit_mx cfg rtol atol X w = Some st ->
    forall (k : nat) (T : 'M[F]_(k, d)), 0 < atol -> 0 <= rtol ->
      sc_transform_mx st (sc_inverse_mx st T) = T.
Proof.
  move=> F cfg n d rtol atol X w st ok fitS k T a0 r0.
  apply: sc_transformK_nz => j; exact/lt0r_neq0/(fit_scale_pos ok fitS).
Qed.
Print Assumptions C11_inverse_converse.

(* non-negative integer sample weights are equivalent to repeating rows: if row i of X
   occurs w_i = #{k | f k = i} times in the N-row data X o f (any arrangement f), then the
   unweighted fit on X o f and the weighted fit on X have the same outcome — the same
   mean_ and scale_ (hence the same transform), or both are rejected.  Both data sets
   need the 2 rows that fit demands. *)
Theorem C11_integer_weights_replicate :
  forall (F : rcfType) (wm ws cw : bool) (n N d : nat) (rtol atol : F)
         (X : 'M[F]_(n, d)) (w : 'cV[F]_n) (f : 'I_N -> 'I_n),
    (forall i, w i ord0 = #|[pred k | f k == i]|%:R) ->
    forall w' : 'cV[F]_N, (1 < n)%N -> (1 < N)%N ->
      sc_fit_mx (ScCfg wm ws cw false) rtol atol (\matrix_(k, j) X (f k) j : 'M[F]_(N, d)) w'
      = sc_fit_mx (ScCfg wm ws cw true) rtol atol X w.
Proof. exact sc_replicate. Qed.
Print Assumptions C11_integer_weights_replicate.

(* unweighted column-wise mode is the z-score with the population variance that
   sklearn's StandardScaler documents: (y - mean) / sqrt(mean((x - mean)^2)) *)
Theorem C11_textbook :
  forall (F : rcfType) (cfg : sc_cfg) (n d : nat) (rtol atol : F)
         (X : 'M[F]_(n, d)) (w : 'cV[F]_n),
    sc_wok cfg w ->
    forall (st : 'rV[F]_d * 'rV[F]_d) (k : nat) (Y : 'M[F]_(k, d)) (i : 'I_k) (j : 'I_d),
    sc_fit_mx cfg rtol atol X w = Some st ->
    ~~ has_w cfg -> with_mean cfg -> with_std cfg -> column_wise cfg ->
    let mu := (\sum_l X l j) / n%:R in
    (sc_transform_mx st Y) i j
    = (Y i j - mu) / Num.sqrt ((\sum_l (X l j - mu) ^+ 2) / n%:R).
Proof.
  move=> F cfg n d rtol atol X w ok st k Y i j fitS /negbTE hw wm ws cw mu.
  by rewrite (sc_transform_formula ok _ _ _ fitS) wm ws cw /sc_effw hw wvar_ones wmean_ones mxE.
Qed.
Print Assumptions C11_textbook.

(* a prior shift of the input by a row c (added to every row): the scale is unchanged and,
   with centring on, so is the transformed data (training or new) ... *)
Theorem C11_shift_invariant :
  forall (F : rcfType) (cfg : sc_cfg) (n d : nat) (rtol atol : F)
         (X : 'M[F]_(n, d)) (w : 'cV[F]_n),
    sc_wok cfg w ->
    forall (st st' : 'rV[F]_d * 'rV[F]_d) (c : 'rV[F]_d),
    sc_fit_mx cfg rtol atol X w = Some st ->
    sc_fit_mx cfg rtol atol (X + rows_of n c) w = Some st' ->
    st'.2 = st.2
    /\ (with_mean cfg -> forall (k : nat) (Y : 'M[F]_(k, d)),
          sc_transform_mx st' (Y + rows_of k c) = sc_transform_mx st Y).
Proof. exact sc_shift. Qed.
Print Assumptions C11_shift_invariant.

(* ... and with rtol = 0 (the default) the shifted data is accepted whenever the original
   is, with mean_ moved by c *)
Theorem C11_shift_accepted :
  forall (F : rcfType) (cfg : sc_cfg) (n d : nat) (rtol atol : F)
         (X : 'M[F]_(n, d)) (w : 'cV[F]_n),
    sc_wok cfg w ->
    forall (st : 'rV[F]_d * 'rV[F]_d) (c : 'rV[F]_d),
    rtol = 0 -> sc_fit_mx cfg rtol atol X w = Some st ->
    sc_fit_mx cfg rtol atol (X + rows_of n c) w
    = Some (if with_mean cfg then st.1 + c else st.1, st.2).
Proof. exact sc_shift_fit. Qed.
Print Assumptions C11_shift_accepted.

(* a prior uniform rescaling X |-> a X, a != 0, with scaling on: the transformed data is
   multiplied by the sign of a (all modes, with or without centring) *)
Theorem C11_rescale_sign :
  forall (F : rcfType) (cfg : sc_cfg) (n d : nat) (rtol atol : F)
         (X : 'M[F]_(n, d)) (w : 'cV[F]_n),
    sc_wok cfg w ->
    forall (st st' : 'rV[F]_d * 'rV[F]_d) (a : F),
    a != 0 -> with_std cfg ->
    sc_fit_mx cfg rtol atol X w = Some st ->
    sc_fit_mx cfg rtol atol (a *: X) w = Some st' ->
    forall (k : nat) (Y : 'M[F]_(k, d)),
      sc_transform_mx st' (a *: Y) = Num.sg a *: sc_transform_mx st Y.
Proof. exact sc_rescale. Qed.
Print Assumptions C11_rescale_sign.

(* data whose variance is below the configured tolerance is rejected: fit is accepted
   exactly when there are at least 2 samples and (scaling on) no column variance
   [column-wise] / the total variance [whole matrix] is below the tolerance of the guard *)
Theorem C11_zero_variance_rejected :
  forall (F : rcfType) (cfg : sc_cfg) (n d : nat) (rtol atol : F)
         (X : 'M[F]_(n, d)) (w : 'cV[F]_n),
    sc_wok cfg w ->
    let ew := sc_effw cfg w in
    isSome (sc_fit_mx cfg rtol atol X w)
    = ~~ ((n < 2)%N
          || with_std cfg
             && (if column_wise cfg
                 then [exists j, (wvar ew X) ord0 j < atol + `|(wmean ew X) ord0 j| * rtol]
                 else \sum_j (wvar ew X) ord0 j
                      < `|(\sum_j (wmean ew X) ord0 j) / d%:R| * rtol + atol)).
Proof. exact sc_fit_accepted. Qed.
Print Assumptions C11_zero_variance_rejected.

(* ... so an accepted scale_ is the square root of that variance and its square is at
   least the tolerance: no division by a scale below sqrt(atol) is ever performed *)
Theorem C11_scale_bounded_below :
  forall (F : rcfType) (cfg : sc_cfg) (n d : nat) (rtol atol : F)
         (X : 'M[F]_(n, d)) (w : 'cV[F]_n) (st : 'rV[F]_d * 'rV[F]_d),
    sc_wok cfg w -> sc_fit_mx cfg rtol atol X w = Some st ->
    with_std cfg -> 0 <= atol -> 0 <= rtol ->
    let ew := sc_effw cfg w in
    if column_wise cfg
    then forall j, (st.2 ord0 j) ^+ 2 = (wvar ew X) ord0 j
                   /\ atol + `|(wmean ew X) ord0 j| * rtol <= (st.2 ord0 j) ^+ 2
    else forall j, (st.2 ord0 j) ^+ 2 = \sum_j (wvar ew X) ord0 j
                   /\ `|(\sum_j (wmean ew X) ord0 j) / d%:R| * rtol + atol <= (st.2 ord0 j) ^+ 2.
Proof. exact sc_scale_bounded. Qed.
Print Assumptions C11_scale_bounded_below.

(* the complete functional form of transform on ANY data, for every flag combination and any
   (given or absent) sample weights: (y - [weighted mean]) / [sqrt of the weighted column
   variance | sqrt of their sum | 1].  C11_textbook is the instance all flags on, unweighted. *)
Theorem C11_transform_formula :
  forall (F : rcfType) (cfg : sc_cfg) (n d : nat) (rtol atol : F)
         (X : 'M[F]_(n, d)) (w : 'cV[F]_n),
    sc_wok cfg w ->
    forall (st : 'rV[F]_d * 'rV[F]_d) (k : nat) (Y : 'M[F]_(k, d)) (i : 'I_k) (j : 'I_d),
    sc_fit_mx cfg rtol atol X w = Some st ->
    let ew := sc_effw cfg w in
    (sc_transform_mx st Y) i j
    = (Y i j - (if with_mean cfg then (wmean ew X) ord0 j else 0))
      / (if with_std cfg then
           if column_wise cfg then Num.sqrt ((wvar ew X) ord0 j)
           else Num.sqrt (\sum_l (wvar ew X) ord0 l)
         else 1).
Proof. exact sc_transform_formula. Qed.
Print Assumptions C11_transform_formula.

(* weights incl. zeros: rows of weight zero do not influence the fit at all — two data sets
   that agree on every row of non-zero weight have the same fit outcome (mean_, scale_ or
   rejection); real weights, not only integer multiplicities *)
Theorem C11_zero_weight_rows_ignored :
  forall (F : rcfType) (cfg : sc_cfg) (n d : nat) (rtol atol : F)
         (X : 'M[F]_(n, d)) (w : 'cV[F]_n),
    sc_wok cfg w ->
    forall X' : 'M[F]_(n, d),
    has_w cfg -> (forall i, w i ord0 != 0 -> forall j, X i j = X' i j) ->
    sc_fit_mx cfg rtol atol X w = sc_fit_mx cfg rtol atol X' w.
Proof.
  move=> F cfg n d rtol atol X w ok X' hw H; rewrite !(sc_fit_mxE _ _ _ ok) /sc_effw hw.
  by rewrite (wmean_eq_on_support H) (wvar_eq_on_support H).
Qed.
Print Assumptions C11_zero_weight_rows_ignored.

(* only the ratios of the sample weights matter ("weights are internally normalized") *)
Theorem C11_weight_scale_invariant :
  forall (F : rcfType) (cfg : sc_cfg) (n d : nat) (rtol atol : F)
         (X : 'M[F]_(n, d)) (w : 'cV[F]_n),
    sc_wok cfg w ->
    forall a : F, has_w cfg -> a != 0 ->
    sc_fit_mx cfg rtol atol X (a *: w) = sc_fit_mx cfg rtol atol X w.
Proof.
  move=> F cfg n d rtol atol X w ok a hw a0; have S0 : wsum w != 0 by move: ok; rewrite /sc_wok hw.
  have ok' : sc_wok cfg (a *: w) by rewrite /sc_wok hw /= wsum_scale mulf_neq0.
  by rewrite (sc_fit_mxE _ _ _ ok') (sc_fit_mxE _ _ _ ok) /sc_effw hw !wvarE !wmean_scale_w.
Qed.
Print Assumptions C11_weight_scale_invariant.

(* C11_rescale_sign assumes that the rescaled data is accepted too.  For |a| >= 1 that is
   automatic (all modes, all tolerances) ... *)
Theorem C11_rescale_accepted :
  forall (F : rcfType) (cfg : sc_cfg) (n d : nat) (rtol atol : F)
         (X : 'M[F]_(n, d)) (w : 'cV[F]_n),
    sc_wok cfg w ->
    forall (st : 'rV[F]_d * 'rV[F]_d) (a : F),
    sc_fit_mx cfg rtol atol X w = Some st -> 1 <= `|a| -> 0 <= atol -> 0 <= rtol ->
    isSome (sc_fit_mx cfg rtol atol (a *: X) w).
Proof. exact sc_rescale_accepted. Qed.
Print Assumptions C11_rescale_accepted.

(* ... and for |a| < 1 it can fail: the accepted 2 x 1 data (0, 2) with atol = 1/2 is
   rejected after multiplication by 1/2 (variance 1/4).  The guard is absolute in atol. *)
Theorem C11_rescale_down_can_be_rejected :
  forall F : rcfType,
    let X : 'M[F]_(2, 1) := \matrix_(i, j) (i : nat)%:R *+ 2 in
    let cfg := ScCfg true true true false in
    isSome (sc_fit_mx cfg 0 (2%:R^-1) X 0)
    /\ sc_fit_mx cfg 0 (2%:R^-1) (2%:R^-1 *: X) 0 = None.
Proof. exact sc_rescale_down_rejected. Qed.
Print Assumptions C11_rescale_down_can_be_rejected.

(* a prior shift with centring OFF is not absorbed: the output moves by c / scale_ *)
Theorem C11_shift_without_centring :
  forall (F : rcfType) (cfg : sc_cfg) (n d : nat) (rtol atol : F)
         (X : 'M[F]_(n, d)) (w : 'cV[F]_n),
    sc_wok cfg w ->
    forall (st st' : 'rV[F]_d * 'rV[F]_d) (c : 'rV[F]_d),
    ~~ with_mean cfg ->
    sc_fit_mx cfg rtol atol X w = Some st ->
    sc_fit_mx cfg rtol atol (X + rows_of n c) w = Some st' ->
    forall (k : nat) (Y : 'M[F]_(k, d)) (i : 'I_k) (j : 'I_d),
      (sc_transform_mx st' (Y + rows_of k c)) i j
      = (sc_transform_mx st Y) i j + c ord0 j / st.2 ord0 j.
Proof.
  move=> F cfg n d rtol atol X w ok st st' c /negbTE wm fitS fitS' k Y i j.
  have [e2' _] := sc_shift ok fitS fitS'.
  have [_ _ _ e1 _] := fit_some ok fitS; have [_ _ _ e1' _] := fit_some ok fitS'.
  by rewrite !sc_transform_mx_ij e2' e1' e1 /mean_of wm !mxE !subr0 mulrDl.
Qed.
Print Assumptions C11_shift_without_centring.

(* standardised data is standardised: with centring and scaling on and atol <= 1, fitting
   again on transform(X) (same flags, same weights) is accepted with mean_ = 0 and
   scale_ = 1, so standardising twice is standardising once, on any data *)
Theorem C11_idempotent :
  forall (F : rcfType) (cfg : sc_cfg) (n d : nat) (rtol atol : F)
         (X : 'M[F]_(n, d)) (w : 'cV[F]_n) (st : 'rV[F]_d * 'rV[F]_d),
    sc_wok cfg w -> sc_fit_mx cfg rtol atol X w = Some st ->
    with_mean cfg -> with_std cfg -> 0 < atol -> atol <= 1 -> 0 <= rtol ->
    exists st2, sc_fit_mx cfg rtol atol (sc_transform_mx st X) w = Some st2
      /\ forall (k : nat) (Y : 'M[F]_(k, d)),
           sc_transform_mx st2 (sc_transform_mx st Y) = sc_transform_mx st Y.
Proof.
  move=> F cfg n d rtol atol X w st ok fitS wm ws a0 a1 r0; exists (0, const_mx 1).
  by split=> [|k Y]; [exact: sc_refit_standardised | exact: sc_transform_id].
Qed.
Print Assumptions C11_idempotent.

(* The estimator OBJECT over arbitrary call sequences (Model/ScalerObjMx.v; its binary64
   twin Model/ScalerObj.v is run against the Python object call by call).
   State: constructor parameters + (None | n_samples_in_, n_features_in_, `scale_ is an
   array`, mean_, scale_).  Calls: set_params, fit (any shape, with/without weights),
   transform / inverse_transform (any width).  A fit rejected by the zero-variance guard
   leaves the object fitted with the new mean_ and scale_ = 1.0 — as the code does. *)

(* INVARIANT (induction over the call sequence): from a fresh estimator, after ANY sequence
   of calls in which every atol in force is >= a0 > 0, every rtol >= 0 and given weights
   have non-zero sum, a stored scale_ is positive and either exactly 1 or scale_^2 >= a0.
   So no transform of any reachable object divides by a scale below min(1, sqrt a0) — also
   not after rejected refits or parameter changes between fits. *)
Theorem C11_obj_scale_invariant :
  forall (F : rcfType) (a0 : F), 0 < a0 ->
  forall (p0 : so_par F) (ops : seq (so_op F)) (f : so_fitted F),
    par_ok a0 p0 -> all (op_ok a0) ops ->
    o_fit (so_run (SoObj p0 None) ops).1 = Some f ->
    forall j, 0 < (f_st f).2 ord0 j
              /\ ((f_st f).2 ord0 j = 1 \/ a0 <= (f_st f).2 ord0 j ^+ 2).
Proof. exact so_reachable_scale. Qed.
Print Assumptions C11_obj_scale_invariant.

(* hence in every reachable fitted state transform and inverse_transform (on data of the
   fitted width) return matrices and undo each other, in both orders *)
Theorem C11_obj_roundtrip :
  forall (F : rcfType) (a0 : F), 0 < a0 ->
  forall (p0 : so_par F) (ops : seq (so_op F)) (f : so_fitted F),
    par_ok a0 p0 -> all (op_ok a0) ops ->
    let o := (so_run (SoObj p0 None) ops).1 in
    o_fit o = Some f ->
    forall (k : nat) (Y : 'M[F]_(k, f_d f)),
      let T := sc_transform_mx (f_st f) Y in
      [/\ so_step o (OpTransform Y) = (o, OutMat (box T)),
          so_step o (OpInverse T) = (o, OutMat (box Y))
        & so_step o (OpTransform (sc_inverse_mx (f_st f) Y)) = (o, OutMat (box Y))].
Proof.
  move=> F a0 a0_pos p0 ops f pk okr o E k Y.
  exact: (so_roundtrip Y E (so_reachable_scale a0_pos pk okr E)).
Qed.
Print Assumptions C11_obj_roundtrip.

(* transform never changes the object; transform and inverse_transform raise NotFittedError exactly
   when nothing is fitted, ValueError exactly when the width differs from n_features_in_,
   and return a matrix otherwise *)
Theorem C11_obj_transform_outcome :
  forall (F : rcfType) (o : so_obj F) (k c : nat) (Y : 'M[F]_(k, c)),
    (so_step o (OpTransform Y)).1 = o
    /\ match (so_step o (OpTransform Y)).2, (so_step o (OpInverse Y)).2 with
       | OutNotFitted, OutNotFitted => o_fit o = None
       | OutValueError, OutValueError => exists2 f, o_fit o = Some f & c != f_d f
       | OutMat _, OutMat _ => exists2 f, o_fit o = Some f & c = f_d f
       | _, _ => False
       end.
Proof.
  move=> F o k c Y; rewrite /=; case E: (o_fit o) => [f|] //=; case ce: (c == f_d f) => /=; split=> //.
    by exists f => //; apply/eqP.
  by exists f => //; rewrite ce.
Qed.
Print Assumptions C11_obj_transform_outcome.

(* no stale state: a fit with >= 2 rows overwrites every fitted attribute; the resulting
   object and outcome depend on the current parameters and the arguments only *)
Theorem C11_obj_refit_fresh :
  forall (F : rcfType) (o o' : so_obj F) (n d : nat) (X : 'M[F]_(n, d)) (hw : bool) (w : 'cV[F]_n),
    o_par o = o_par o' -> (1 < n)%N ->
    so_step o (OpFit X hw w) = so_step o' (OpFit X hw w)
    /\ isSome (o_fit (so_step o (OpFit X hw w)).1).
Proof.
  move=> F [p fo] [p' fo'] n d X hw w /= <- n1; rewrite /so_fit ltnNge n1 /=.
  by case: (sc_fit_mx _ _ _ _ _).
Qed.
Print Assumptions C11_obj_refit_fresh.

(* a fit with fewer than 2 rows raises and touches nothing *)
Theorem C11_obj_fit_small_untouched :
  forall (F : rcfType) (o : so_obj F) (n d : nat) (X : 'M[F]_(n, d)) (hw : bool) (w : 'cV[F]_n),
    (n < 2)%N -> so_step o (OpFit X hw w) = (o, OutValueError F).
Proof. by move=> F o n d X hw w n1; rewrite /= /so_fit /sc_fit_mx n1. Qed.
Print Assumptions C11_obj_fit_small_untouched.

(* what a fit rejected by the zero-variance guard leaves behind (quirk of the code, stated
   as it is): the object is fitted, with the new n_samples_in_ / n_features_in_ / mean_ and
   the scalar scale_ = 1 — the rejected variance is never divided by *)
Theorem C11_obj_rejected_fit_state :
  forall (F : rcfType) (o : so_obj F) (n d : nat) (X : 'M[F]_(n, d)) (hw : bool) (w : 'cV[F]_n),
    (1 < n)%N ->
    sc_fit_mx (so_cfg (o_par o) hw) (p_rtol (o_par o)) (p_atol (o_par o)) X w = None ->
    exists f, [/\ so_step o (OpFit X hw w) = (SoObj (o_par o) (Some f), OutValueError F),
                  f_n f = n, f_arr f = false
                & exists e : f_d f = d,
                    castmx (erefl, e) (f_st f).2 = const_mx 1
                    /\ castmx (erefl, e) (f_st f).1
                       = eval_mx (sc_env_fit_mx X w) (sc_mean (so_cfg (o_par o) hw) n d)].
Proof.
  move=> F o n d X hw w n1 E; rewrite /= /so_fit E ltnNge n1 /=.
  eexists; split; [reflexivity | by [] | by [] |].
  by exists erefl; rewrite !castmx_id.
Qed.
Print Assumptions C11_obj_rejected_fit_state.

(* non-vacuity of the object theorems: over every real closed field the trace
   fit (0,2) [accepted]; fit (1,1) [rejected by the guard]; transform of width 2 [ValueError];
   transform of width 1 [matrix] is admissible with a0 = 1/2 and ends fitted with a scalar
   scale_ *)
Example C11_obj_nonvacuous :
  forall F : rcfType,
    let p : so_par F := SoPar true true true 0 (2%:R^-1) in
    let X : 'M[F]_(2, 1) := \matrix_(i, j) (i : nat)%:R *+ 2 in
    let C : 'M[F]_(2, 1) := const_mx 1 in
    let Y2 : 'M[F]_(1, 2) := 0 in
    let ops := [:: OpFit X false 0; OpFit C false 0; OpTransform Y2; OpTransform C] in
    par_ok (2%:R^-1) p /\ all (op_ok (2%:R^-1)) ops
    /\ exists f B, [/\ (so_run (SoObj p None) [:: OpFit X false 0]).2 = [:: OutSelf F],
                      o_fit (so_run (SoObj p None) ops).1 = Some f,
                      (so_run (SoObj p None) ops).2
                      = [:: OutSelf F; OutValueError F; OutValueError F; OutMat B]
                    & f_arr f = false].
Proof. exact so_nonvacuous. Qed.

(* non-vacuity: over every real closed field the 2 x 1 data (0, 2), unweighted, all flags on,
   atol = 1/2, is accepted with mean_ = 1 and scale_ = 1 (so the hypotheses of the theorems
   above are satisfiable with a non-trivial centre and scale); and the binary64 run of the
   same programs on the same data gives the same result *)
Example C11_nonvacuous :
  forall F : rcfType,
    let X : 'M[F]_(2, 1) := \matrix_(i, j) (i : nat)%:R *+ 2 in
    sc_wok (ScCfg true true true false) (0 : 'cV[F]_2)
    /\ sc_fit_mx (ScCfg true true true false) 0 (2%:R^-1) X 0
       = Some (const_mx 1, const_mx 1).
Proof. exact sc_nonvacuous. Qed.

Example C11_nonvacuous_float :
  sc_fit_f (ScCfg true true true false) 2 1 0%float 0.5%float
           (cons (cons 0%float nil) (cons (cons 2%float nil) nil)) nil
  = Some (cons (cons 1%float nil) nil, cons (cons 1%float nil) nil).
Proof. vm_compute. reflexivity. Qed.

Example C11_obj_nonvacuous_float :
  let p := SofPar true true true 0%float 0.5%float in
  let X := cons (cons 0%float nil) (cons (cons 2%float nil) nil) in
  let C := cons (cons 1%float nil) (cons (cons 1%float nil) nil) in
  List.map (fun x => snd (fst x))
    (cons (sof_step (SofObj p None) (FTransform 2 1 C))
    (cons (sof_step (SofObj p None) (FFit 2 1 X false nil))
    (cons (sof_step (fst (fst (sof_step (SofObj p None) (FFit 2 1 X false nil)))) (FFit 2 1 C false nil))
    (cons (sof_step (fst (fst (sof_step (SofObj p None) (FFit 2 1 X false nil)))) (FTransform 1 2 (cons (cons 0%float (cons 0%float nil)) nil)))
    (cons (sof_step (fst (fst (sof_step (SofObj p None) (FFit 2 1 X false nil)))) (FTransform 2 1 X)) nil)))))
  = cons FNotFitted (cons FSelf (cons FValueError (cons FValueError
      (cons (FMat (cons (cons (-1)%float nil) (cons (cons 1%float nil) nil))) nil)))).
Proof. vm_compute. reflexivity. Qed.
