(* C05 — KernelPCovR agrees with PCovR and its kernel plumbing; scores any held-out set.
   Statements; each proof is a lemma of Proofs/KPCovR*P.v or a few lines putting such lemmas together.

   Model: Model/KPCovR.v — KernelPCovR._fit / transform / predict / score, KernelNormalizer and
   sample-space PCovR as programs of the typed matrix-expression language Base/MExp.v.
   [eval_mx env prog] (Base/MExpMx.v) interprets a program over an ARBITRARY real closed field F;
   the same programs are run on binary64 against the implementation in the per-run check.
   Shapes: n training samples, p targets, k components, v new samples, d features - all arbitrary.
   Variables of the programs ([env rows cols id]):
     vK  n x n training kernel      vKt v x n kernel new-vs-train     vKvv v x v kernel new-vs-new
     vYh n x p Yhat                 vW  n x p dual weights            vY   n x p targets of fit
     va  1 x 1 mixing               vtol 1 x 1 tol                    vYv  v x p targets of score
   oracles (LAPACK results, constrained by the hypotheses that name them):
     vV n x k, vS k x 1  singular pairs of K~ used by _fit;  vPT k x n = pt__ = pinv(T);
     vG k x k = pinv(t_n^T t_n) in score.
   [penrose A X] = the four Moore-Penrose equations.  Kernel evaluation itself is an oracle:
   the programs read the data only through kernel matrices; that a named kernel behaves like the
   same kernel precomputed is C05_named_is_precomputed, about the object model below, and is
   checked against the implementation in the correspondence check. *)
From mathcomp Require Import all_ssreflect all_algebra.
From Verif Require Import MExp MExpMx KPCovR KPCovRP KPCovRState KPCovRStateP KPCovRGuard KPCovRGuardP.
Import GRing.Theory Num.Theory.
Local Open Scope ring_scope.

(* linear kernel = sample-space PCovR.
   With K = X X^T, K_VN = X' X^T and primal weights X^T W (W the dual weights) the modified Gram
   matrix is PCovR's, every new sample gets the same latent coordinates as from sample-space
   PCovR's P_XT (no assumption on the eigen-solver beyond both using the same answer), hence the
   same T T^T; and under the oracle post-conditions the predictions coincide. *)
Theorem C05_linear_is_pcovr :
  forall (F : rcfType) (n d p k v : nat) (env : env_mx F),
    let K := env n n vK in let Kt := env v n vKt in let X := env n d vX in
    let Xt := env v d vXt in let W := env n p vW in let Wx := env d p vWx in
    let Yh := env n p vYh in let V := env n k vV in let S := env k 1%N vS in
    let tol := (env 1%N 1%N vtol) ord0 ord0 in let PT := env k n vPT in
    K = X *m X^T -> Kt = Xt *m X^T -> Wx = X^T *m W ->
    [/\ eval_mx env (ktilde_prog n p) = eval_mx env (pc_ktilde n d p),
        eval_mx env (transform_prog n p k v) = eval_mx env (@pc_transform n d p k v),
        eval_mx env (tt_prog n p k v)
        = eval_mx env (@pc_transform n d p k v) *m (eval_mx env (@pc_transform n d p k v))^T
      & Yh = K *m W ->
        eval_mx env (ktilde_prog n p) *m V = V *m diag_mx S^T -> V^T *m V = 1%:M ->
        0 <= tol -> (forall i, tol < S i ord0) ->
        penrose (eval_mx env (T_prog n p k)) PT ->
        eval_mx env (predict_prog n p k v) = eval_mx env (@pc_predict n d p k v)].
Proof.
  move=> F n d p k v env K Kt X Xt W Wx Yh V S tol PT hK hKt hWx; split.
  - exact: linear_ktilde.
  - exact: linear_transform.
  - by rewrite -(linear_transform k hKt hWx).
  - by move=> hY hE hV t0 _; apply: linear_predict.
Qed.
Print Assumptions C05_linear_is_pcovr.

(* the latent coordinates of the training set, any mixing (regressor path Yhat = K W) *)
Theorem C05_latent_is_eigen :
  forall (F : rcfType) (n p k : nat) (env : env_mx F),
    env n p vYh = env n n vK *m env n p vW ->
    eval_mx env (ktilde_prog n p) *m env n k vV = env n k vV *m diag_mx (env k 1%N vS)^T ->
    0 <= (env 1%N 1%N vtol) ord0 ord0 ->
    (forall i, (env 1%N 1%N vtol) ord0 ord0 < (env k 1%N vS) i ord0) ->
    eval_mx env (T_prog n p k) = env n k vV *m diag_mx (\row_i Num.sqrt ((env k 1%N vS) i ord0)).
Proof. by move=> F n p k env hY hE t0 hS; apply: T_eigen. Qed.
Print Assumptions C05_latent_is_eigen.

(* pt__ is pinned down by its Penrose equations: it is S^{-1/2} V^T *)
Theorem C05_pt_is_pinv :
  forall (F : rcfType) (n p k : nat) (env : env_mx F),
    env n p vYh = env n n vK *m env n p vW ->
    eval_mx env (ktilde_prog n p) *m env n k vV = env n k vV *m diag_mx (env k 1%N vS)^T ->
    (env n k vV)^T *m env n k vV = 1%:M ->
    0 <= (env 1%N 1%N vtol) ord0 ord0 ->
    (forall i, (env 1%N 1%N vtol) ord0 ord0 < (env k 1%N vS) i ord0) ->
    penrose (eval_mx env (T_prog n p k)) (env k n vPT) ->
    env k n vPT = diag_mx (\row_i (Num.sqrt ((env k 1%N vS) i ord0))^-1) *m (env n k vV)^T.
Proof. by move=> F n p k env hY hE hV t0 hS; apply: PT_value. Qed.
Print Assumptions C05_pt_is_pinv.

(* center=True = explicit KernelNormalizer on the train and test blocks.
   [msubst (s_center n v) e] is the program e with every kernel block replaced by the normaliser
   program applied to the raw block (what the code does when center=True); it evaluates like e
   itself in any environment env' that holds the explicitly normalised blocks
   ([knorm_mx] = KernelNormalizer.transform written out: subtract the training column means and
   the block's row means, add the training grand mean, divide by trace/n of the centred training
   kernel) and agrees with env elsewhere.  Holds for every program e of the model. *)
Theorem C05_center_is_normalizer :
  forall (F : rcfType) (n : nat) (env : env_mx F) (v : nat) (env' : env_mx F) (a b : nat) (e : mexp a b),
    env' n n vK = knorm_mx (env n n vK) (env n n vK) ->
    env' v n vKt = knorm_mx (env n n vK) (env v n vKt) ->
    env' v v vKvv = knorm_vv_mx (env n n vK) (env v n vKt) (env v v vKvv) ->
    (forall r c x, ~ (r = n /\ c = n /\ x = vK) -> ~ (r = v /\ c = n /\ x = vKt) ->
                   ~ (r = v /\ c = v /\ x = vKvv) -> env' r c x = env r c x) ->
    eval_mx env (msubst (s_center n v) e) = eval_mx env' e.
Proof. exact center_is_normalizer. Qed.
Print Assumptions C05_center_is_normalizer.

(* what the normalised blocks are: the Gram blocks of the features centred on the TRAINING mean
   and scaled by 1/s - for the train-train, new-train and (in score) new-new block alike *)
Theorem C05_center_blocks_feature_space :
  forall (F : rcfType) (n d v : nat) (Phi : 'M[F]_(n, d)) (PhiV : 'M[F]_(v, d)),
    let mu : 'rV[F]_d := n%:R^-1 *: (const_mx 1 *m Phi) in
    let C := Phi - const_mx 1 *m mu in let CV := PhiV - const_mx 1 *m mu in
    let K := Phi *m Phi^T in let s := kn_scale K in
    [/\ knorm_mx K K = s^-1 *: (C *m C^T),
        knorm_mx K (PhiV *m Phi^T) = s^-1 *: (CV *m C^T)
      & knorm_vv_mx K (PhiV *m Phi^T) (PhiV *m PhiV^T) = s^-1 *: (CV *m CV^T)].
Proof.
  by move=> F n d v Phi PhiV mu C CV K s; split; rewrite /knorm_mx ?fs_cen // /knorm_vv_mx fs_vv.
Qed.
Print Assumptions C05_center_blocks_feature_space.

(* mixing = 1: kernel PCA.
   T = V S^{1/2} of the kernel handed to _fit, new samples are projected by K_VN V S^{-1/2};
   no hypothesis on the regression. *)
Theorem C05_kpca_limit :
  forall (F : rcfType) (n p k v : nat) (env : env_mx F),
    let K := env n n vK in let Kt := env v n vKt in let V := env n k vV in
    let S := env k 1%N vS in let tol := (env 1%N 1%N vtol) ord0 ord0 in
    (env 1%N 1%N va) ord0 ord0 = 1 ->
    K *m V = V *m diag_mx S^T -> 0 <= tol -> (forall i, tol < S i ord0) ->
    eval_mx env (T_prog n p k) = V *m diag_mx (\row_i Num.sqrt (S i ord0)) /\
    eval_mx env (transform_prog n p k v) = Kt *m V *m diag_mx (\row_i (Num.sqrt (S i ord0))^-1).
Proof.
  by move=> F n p k v env K Kt V S tol a1 hE t0 hS; split; [apply: T_eigen_a1 | apply: transform_a1].
Qed.
Print Assumptions C05_kpca_limit.

(* ... and when that kernel is Kc/s (centred kernel divided by the normaliser's scale s > 0) the
   projections are kernel PCA's V sqrt(lambda) of Kc divided by sqrt(s) *)
Theorem C05_kpca_limit_scaled :
  forall (F : rcfType) (n p k : nat) (env : env_mx F) (Kc : 'M[F]_n) (lam : 'cV[F]_k) (s : F),
    0 < s -> env n n vK = s^-1 *: Kc -> Kc *m env n k vV = env n k vV *m diag_mx lam^T ->
    env k 1%N vS = s^-1 *: lam -> (env 1%N 1%N va) ord0 ord0 = 1 ->
    0 <= (env 1%N 1%N vtol) ord0 ord0 ->
    (forall i, (env 1%N 1%N vtol) ord0 ord0 < (env k 1%N vS) i ord0) ->
    eval_mx env (T_prog n p k)
    = (Num.sqrt s)^-1 *: (env n k vV *m diag_mx (\row_i Num.sqrt (lam i ord0))).
Proof. by move=> F n p k env Kc lam s s0 hK hE hS a1 t0 hpos; exact: (kpca_scaled p hpos a1 s0 hK hE hS t0). Qed.
Print Assumptions C05_kpca_limit_scaled.

(* score: shapes.
   [raw_score_doc] is the documented formula  -(tr[K_VV - 2 K_VN w + w^T K_NN w]/tr K_VV + l_regr),
   w = t_n pinv(t_n^T t_n) t_v^T, in an UNTYPED syntax on which [rshape] checks shapes the way numpy
   does.  It is exactly the erasure of the typed program [score_prog n p k v] and is well-formed
   (a 1 x 1 result) for every n, p, k and every number v of held-out samples. *)
Theorem C05_score_shapes :
  forall n p k v : nat,
    raw_score_doc n p k v = erase (score_prog n p k v) /\
    rshape (raw_score_doc n p k v) = Some (1%N, 1%N).
Proof. by move=> n p k v; split=> //; exact: (rshape_erase (score_prog n p k v)). Qed.
Print Assumptions C05_score_shapes.

(* every typed program is shape-correct: the checker accepts all of the model *)
Theorem C05_typed_programs_shape_check :
  forall (m n : nat) (e : mexp m n), rshape (erase e) = Some (m, n).
Proof. exact rshape_erase. Qed.
Print Assumptions C05_typed_programs_shape_check.

(* the formula of the code before the repair (w^T K_VV w) is well-formed iff n_V = n_N:
   see Findings/F4_kpcovr_score_blocks.v *)
Theorem C05_score_shapes_code_before_fix :
  forall n p k v : nat,
    rshape (raw_score_code_before_fix n p k v)
    = if PeanoNat.Nat.eqb n v then Some (1%N, 1%N) else None.
Proof. exact score_code_before_fix_shapes. Qed.
Print Assumptions C05_score_shapes_code_before_fix.

(* score on the training set.
   V = N (the three kernel blocks are the training kernel): the score program equals the in-sample
   expression  -(tr[K - K w]/tr K + |Y - K P_KY|^2/|Y|^2),  w = t pinv(t^T t) t^T
   ([score_train_prog], the formula of tests/test_kernel_pcovr.py::test_kpcovr_error). *)
Theorem C05_score_train :
  forall (F : rcfType) (n p k : nat) (env : env_mx F),
    env n n vKt = env n n vK -> env n n vKvv = env n n vK ->
    penrose ((eval_mx env (tn_prog n p k))^T *m eval_mx env (tn_prog n p k)) (env k k vG) ->
    eval_mx env (score_prog n p k n) = eval_mx env (score_train_prog n p k).
Proof. exact score_train. Qed.
Print Assumptions C05_score_train.

(* configurations are substitutions.
   the regressor path (Yhat = K W), regressor="precomputed" (Yhat = Y) and center=True are run in
   the check as [msubst s prog]; that is the program in the environment holding the substituted
   values *)
Theorem C05_substitution :
  forall (F : rcfType) (env : env_mx F) (s : subst_t) (m n : nat) (e : mexp m n),
    eval_mx env (msubst s e) = eval_mx (fun a b x => eval_mx env (s a b x)) e.
Proof. by move=> F env s m n e; apply: msubst_eval. Qed.
Print Assumptions C05_substitution.

(* the Moore-Penrose equations determine the oracle answers PT and G *)
Theorem C05_pinv_unique :
  forall (F : rcfType) (m n : nat) (A : 'M[F]_(m, n)) (X Y : 'M[F]_(n, m)),
    penrose A X -> penrose A Y -> X = Y.
Proof. exact penrose_uniq. Qed.
Print Assumptions C05_pinv_unique.

(* the hypotheses are satisfiable: identity-matrix instance for every size n (d = p = k = v = n),
   mixing 1/2, tol 0.  (Numerically non-trivial instances with residuals ~1e-15 are produced by
   every run of the correspondence check.) *)
Example C05_nonvacuous :
  forall (F : rcfType) (n : nat),
    let env := env_id F in
    env n n vK = env n n vX *m (env n n vX)^T /\
    env n n vKt = env n n vXt *m (env n n vX)^T /\
    env n n vWx = (env n n vX)^T *m env n n vW /\
    env n n vYh = env n n vK *m env n n vW /\
    eval_mx env (ktilde_prog n n) *m env n n vV = env n n vV *m diag_mx (env n 1%N vS)^T /\
    (env n n vV)^T *m env n n vV = 1%:M /\
    0 <= (env 1%N 1%N vtol) ord0 ord0 /\
    (forall i, (env 1%N 1%N vtol) ord0 ord0 < (env n 1%N vS) i ord0) /\
    penrose (eval_mx env (T_prog n n n)) (env n n vPT) /\
    env n n vKt = env n n vK /\ env n n vKvv = env n n vK /\
    penrose ((eval_mx env (tn_prog n n n))^T *m eval_mx env (tn_prog n n n)) (env n n vG) /\
    (env 1%N 1%N va) ord0 ord0 = 2%:R^-1.
Proof.
  move=> F n; cbv zeta.
  have etn : eval_mx (env_id F) (tn_prog n n n) = 1%:M by rewrite -(env_id_T F n).
  do !split; rewrite ?etn ?env_id_T ?env_id_ktilde ?env_id_tol ?env_id_a ?env_id_sq //;
    rewrite ?trmx1 ?mulmx1 ?mul1mx ?trmx1 //.
  - by rewrite env_id_Smx trmx_const diag_const_mx.
  - by move=> i; rewrite env_id_S ltr01.
Qed.

(* the "equivalent ridge regressor".
   C05_linear_is_pcovr ASSUMES Wx = X^T W.  That is what "equivalent" means: if W are the dual
   weights of kernel ridge on the linear kernel, (X X^T + alpha I) W = Y, and Wx the weights of ridge
   regression without intercept, (X^T X + alpha I) Wx = X^T Y, with the same alpha > 0, then
   Wx = X^T W (any n, d, p; X of any rank). *)
Theorem C05_ridge_dual_primal :
  forall (F : rcfType) (n d p : nat) (X : 'M[F]_(n, d)) (Y W : 'M[F]_(n, p)) (Wx : 'M[F]_(d, p)) (alpha : F),
    0 < alpha ->
    (X *m X^T + alpha *: 1%:M) *m W = Y ->
    (X^T *m X + alpha *: 1%:M) *m Wx = X^T *m Y ->
    Wx = X^T *m W.
Proof. exact ridge_dual_primal. Qed.
Print Assumptions C05_ridge_dual_primal.

(* ... so the linear-kernel clause holds with the two regressors given by their defining equations *)
Theorem C05_linear_is_pcovr_ridge :
  forall (F : rcfType) (n d p k v : nat) (env : env_mx F) (alpha : F),
    let K := env n n vK in let Kt := env v n vKt in let X := env n d vX in
    let Xt := env v d vXt in let W := env n p vW in let Wx := env d p vWx in
    let Y := env n p vY in
    let Yh := env n p vYh in let V := env n k vV in let S := env k 1%N vS in
    let tol := (env 1%N 1%N vtol) ord0 ord0 in let PT := env k n vPT in
    K = X *m X^T -> Kt = Xt *m X^T ->
    0 < alpha ->
    (K + alpha *: 1%:M) *m W = Y ->
    (X^T *m X + alpha *: 1%:M) *m Wx = X^T *m Y ->
    [/\ Wx = X^T *m W,
        eval_mx env (ktilde_prog n p) = eval_mx env (pc_ktilde n d p),
        eval_mx env (transform_prog n p k v) = eval_mx env (@pc_transform n d p k v)
      & Yh = K *m W ->
        eval_mx env (ktilde_prog n p) *m V = V *m diag_mx S^T -> V^T *m V = 1%:M ->
        0 <= tol -> (forall i, tol < S i ord0) ->
        penrose (eval_mx env (T_prog n p k)) PT ->
        eval_mx env (predict_prog n p k v) = eval_mx env (@pc_predict n d p k v)].
Proof.
  move=> F n d p k v env alpha K Kt X Xt W Wx Y Yh V S tol PT hK hKt apos hW hWx.
  have hW' : (X *m X^T + alpha *: 1%:M) *m W = Y by rewrite -hK.
  have hdp := ridge_dual_primal apos hW' hWx.
  by have [h1 h2 _ h4] := C05_linear_is_pcovr F n d p k v env hK hKt hdp; split.
Qed.
Print Assumptions C05_linear_is_pcovr_ridge.

Example C05_ridge_nonvacuous :
  forall (F : rcfType) (n p : nat) (Y : 'M[F]_(n, p)),
    let X : 'M[F]_n := 1%:M in let W := 2%:R^-1 *: Y in
    [/\ (0 : F) < 1, (X *m X^T + 1 *: 1%:M) *m W = Y & (X^T *m X + 1 *: 1%:M) *m W = X^T *m Y].
Proof.
  move=> F n p Y.
  have h2 : (1%:M + 1%:M : 'M[F]_n) *m (2%:R^-1 *: Y) = Y.
    by rewrite mulmxDl mul1mx -scalerDr -mulr2n -scaler_nat scalerA mulVf ?scale1r // pnatr_eq0.
  by split; rewrite ?ltr01 // trmx1 mulmx1 scale1r ?mul1mx h2.
Qed.

(* the estimator OBJECT: histories of set_params / fit.
   Model/KPCovRState.v: constructor arguments + fitted attributes, including the attributes a later
   fit leaves behind (centerer_ after center=False, regressor_ after regressor="precomputed", ptx_
   after fit_inverse_transform=False).  The primitive operations (kernel evaluation, KernelNormalizer,
   regression, _fit, the loss, the matrix product) are ARBITRARY functions: the statements are about
   the plumbing and hold for every interpretation.  [same_obs s1 s2]: equal constructor arguments,
   X_fit_, pkt_, pky_, pty_, ptk_ and equal results (value or exception class) of transform, predict
   and score on every input. *)
Section ObjectModel.
  Variables mat kid num rg cen : Type.
  Variable getk : kid -> mat -> mat -> mat.
  Variable kn_fit : mat -> cen.
  Variable kn_tr : cen -> mat -> mat.
  Variable kn_vv : cen -> mat -> mat -> mat.
  Variable regress : rg -> mat -> mat -> mat.
  Variable lstsq : num -> mat -> mat -> mat.
  Variable fit_core : num -> mat -> mat -> mat -> (mat * mat)%type.
  Variable loss : num -> mat -> mat -> mat -> mat -> mat -> mat -> mat.
  Variable mmul : mat -> mat -> mat.
  Notation fit := (@fit mat kid num rg cen getk kn_fit kn_tr regress lstsq fit_core mmul).
  Notation transform := (@transform mat kid num rg cen getk kn_tr mmul).
  Notation predict := (@predict mat kid num rg cen getk kn_tr mmul).
  Notation score := (@score mat kid num rg cen getk kn_tr kn_vv loss).
  Notation run := (@run mat kid num rg cen getk kn_fit kn_tr regress lstsq fit_core mmul).
  Notation same_obs := (@same_obs mat kid num rg cen getk kn_tr kn_vv loss mmul).
  Notation init := (@init mat kid num rg cen).
  Notation set_params := (@set_params mat kid num rg cen).
  Notation SetParams := (@SetParams mat kid num rg).
  Notation Fit := (@Fit mat kid num rg).
  Notation with_centerer := (@with_centerer mat kid num rg cen).
  Notation center_off := (@center_off kid num rg).
  Notation center_on := (@center_on kid num rg).
  Notation as_precomputed := (@as_precomputed kid num rg).
  Notation as_normalized := (@as_normalized kid num rg).

  (* refit = fresh fit, after ANY history (any list of set_params / fit events from any constructor
     arguments): set_params(p); fit(X, Y, W) leaves the object indistinguishable from a new
     estimator constructed with p and fitted once *)
  Theorem C05_refit_is_fresh_fit :
    forall (p0 p : cargs kid num rg) (h : list (event mat kid num rg)) (X Y : mat) (W : option mat),
      same_obs (run (init p0) (h ++ (SetParams p :: Fit X Y W :: nil))) (fit (init p) X Y W).
  Proof. exact: refit_is_fresh_fit. Qed.

  (* the guard that makes it so: with center=False the three methods never read centerer_, whatever
     it holds *)
  Theorem C05_center_guard_reads_argument :
    forall (st : state mat kid num rg cen) (c : option cen),
      p_center (prm st) = false ->
      (forall Xn, transform (with_centerer st c) Xn = transform st Xn) /\
      (forall Xn, predict (with_centerer st c) Xn = predict st Xn) /\
      (forall Xn Yn, score (with_centerer st c) Xn Yn = score st Xn Yn).
  Proof. exact: center_guard. Qed.

  (* not vacuous: after fit(center=True); set_params(center=False); fit the attribute IS still there
     (a fresh object has none), and a transform keyed on its presence would centre the new kernel
     with the normaliser of the FIRST data set *)
  Theorem C05_stale_centerer_is_present :
    forall (p : cargs kid num rg) (X1 Y1 X2 Y2 : mat) (W1 W2 : option mat) (Xn : mat),
      p_center p = true ->
      let st := run (init p) (Fit X1 Y1 W1 :: SetParams (center_off p) :: Fit X2 Y2 W2 :: nil) in
      let c1 := kn_fit (getk (p_kernel p) X1 X1) in
      centerer st = Some c1 /\ centerer (fit (init (center_off p)) X2 Y2 W2) = None /\
      exists P, pkt st = Some P /\
        transform st Xn = Val (mmul (getk (p_kernel p) Xn X2) P) /\
        @transform_hasattr mat kid num rg cen getk kn_tr mmul st Xn
        = Val (mmul (kn_tr c1 (getk (p_kernel p) Xn X2)) P).
  Proof.
    move=> p X1 Y1 X2 Y2 W1 W2 Xn Hc.
    have [H1 H2] := @stale_centerer_present _ _ _ _ _ getk kn_fit kn_tr regress lstsq fit_core mmul
                      p X1 Y1 X2 Y2 W1 W2 Hc.
    by do 2!split=> //; exact: hasattr_guard_differs.
  Qed.

  (* an unfitted object raises NotFittedError; center switched on by set_params WITHOUT a refit on an
     object that was never centred raises AttributeError in all three methods (what the code does) *)
  Theorem C05_unfitted_and_unrefitted_raise :
    forall (p : cargs kid num rg) (X Y : mat) (W : option mat) (Xn Yn : mat),
      (transform (init p) Xn = NotFitted /\ predict (init p) Xn = NotFitted /\ score (init p) Xn Yn = NotFitted) /\
      (p_center p = false ->
       let st := set_params (fit (init p) X Y W) (center_on p) in
       transform st Xn = AttrError /\ predict st Xn = AttrError /\ score st Xn Yn = AttrError).
  Proof.
    by move=> p X Y W Xn Yn; split; [exact: unfitted_raises | exact: center_on_without_refit].
  Qed.

  (* named kernel = that kernel precomputed, as a statement about two objects ([kpre] is
     kernel="precomputed": _get_kernel returns its first argument) *)
  Theorem C05_named_is_precomputed :
    forall (kpre : kid), (forall A B, getk kpre A B = A) ->
    forall (p : cargs kid num rg) (X Y : mat) (W : option mat),
      let K := getk (p_kernel p) X X in
      let s1 := fit (init p) X Y W in
      let s2 := fit (init (as_precomputed kpre p)) K Y W in
      pkt s1 = pkt s2 /\ pky s1 = pky s2 /\ pty s1 = pty s2 /\ ptk s1 = ptk s2 /\
      centerer s1 = centerer s2 /\ regr_W s1 = regr_W s2 /\
      (forall Xn, transform s1 Xn = transform s2 (getk (p_kernel p) Xn X)) /\
      (forall Xn, predict s1 Xn = predict s2 (getk (p_kernel p) Xn X)) /\
      (forall Yn, score s1 X Yn = score s2 K Yn).
  Proof. exact: named_is_precomputed. Qed.

  (* center=True = an object with center=False and kernel="precomputed" fitted on the explicitly
     normalised kernel; new samples are passed as c.transform(k(Xn, X)) *)
  Theorem C05_center_is_explicit_normalizer_object :
    forall (kpre : kid), (forall A B, getk kpre A B = A) ->
    forall (p : cargs kid num rg) (X Y : mat) (W : option mat),
      p_center p = true ->
      let K := getk (p_kernel p) X X in
      let c := kn_fit K in
      let s1 := fit (init p) X Y W in
      let s3 := fit (init (as_normalized kpre p)) (kn_tr c K) Y W in
      pkt s1 = pkt s3 /\ pky s1 = pky s3 /\ pty s1 = pty s3 /\ ptk s1 = ptk s3 /\
      (forall Xn, transform s1 Xn = transform s3 (kn_tr c (getk (p_kernel p) Xn X))) /\
      (forall Xn, predict s1 Xn = predict s3 (kn_tr c (getk (p_kernel p) Xn X))).
  Proof. exact: center_is_explicit_normalizer. Qed.
End ObjectModel.
Print Assumptions C05_refit_is_fresh_fit.
Print Assumptions C05_center_guard_reads_argument.
Print Assumptions C05_stale_centerer_is_present.
Print Assumptions C05_unfitted_and_unrefitted_raise.
Print Assumptions C05_named_is_precomputed.
Print Assumptions C05_center_is_explicit_normalizer_object.

(* a concrete machine on which the stale attribute changes the answer of the hasattr variant while
   the modelled transform agrees with the fresh object *)
Example C05_object_model_nonvacuous :
  let st := t_run (t_init t_p)
              (@Fit nat bool unit unit 2%N 3%N None :: @SetParams nat bool unit unit (@center_off _ _ _ t_p)
               :: @Fit nat bool unit unit 4%N 5%N None :: nil) in
  t_transform st 7%N <> t_transform_hasattr st 7%N /\
  t_transform st 7%N = t_transform (t_fit1 (t_init (@center_off _ _ _ t_p)) 4%N 5%N None) 7%N.
Proof. exact tiny_hasattr_differs. Qed.

(* the rejection branches of fit (Model/KPCovRGuard.v) *)
Theorem C05_fit_accepts_iff :
  forall g : gin, fit_guard g = Accept <-> regressor_ok g /\ ncomp_ok g.
Proof. exact fit_accepts_iff. Qed.
Print Assumptions C05_fit_accepts_iff.

Theorem C05_ncomponents_rejection_iff :
  forall g : gin, fit_guard g = RejNComponents <-> regressor_ok g /\ ~ ncomp_ok g.
Proof. exact ncomp_rejection_iff. Qed.
Print Assumptions C05_ncomponents_rejection_iff.

Theorem C05_regressor_checks_first :
  forall g : gin,
    (g_reg g = GOther -> fit_guard g = RejRegressorType) /\
    (forall f, g_reg g = GKrr false f -> fit_guard g = RejKernelMismatch).
Proof. exact regressor_checks_first. Qed.
Print Assumptions C05_regressor_checks_first.

(* [guard_examples_stmt] (Proofs/KPCovRGuardP.v, Z literals): n=6, d=3, 2-D Y with p=2 -
   a fitted KernelRidge with matching shapes and n_components=2 is accepted, one whose dual_coef_ is
   1-D is refused with the dimension error, n_components=7 is refused, 0 and None are accepted *)
Example C05_guard_nonvacuous : guard_examples_stmt.
Proof. exact guard_examples. Qed.

(* svd_solver="auto" resolution (Model/KPCovRGuard.v).
   n = n_samples, d = n_features, k = n_components_.  Problems with max(n, d) <= 500 - the bound
   included - are decomposed with the full SVD whatever k; above, the randomized solver is used
   exactly when 1 <= k < 0.8 max(n, d); an explicit solver is kept. *)
Theorem C05_auto_solver_small_is_full :
  forall n d k : BinNums.Z, BinInt.Z.le (BinInt.Z.max n d) (BinInt.Z.of_nat 500) -> resolve_solver SAuto n d k = SFull.
Proof. exact auto_small_is_full. Qed.
Print Assumptions C05_auto_solver_small_is_full.

Theorem C05_auto_solver_large :
  forall n d k : BinNums.Z,
    BinInt.Z.lt (BinInt.Z.of_nat 500) (BinInt.Z.max n d) ->
    (resolve_solver SAuto n d k = SRandomized
     <-> BinInt.Z.le (BinInt.Z.of_nat 1) k /\ BinInt.Z.lt (BinInt.Z.mul (BinInt.Z.of_nat 5) k) (BinInt.Z.mul (BinInt.Z.of_nat 4) (BinInt.Z.max n d))) /\
    (resolve_solver SAuto n d k = SFull
     <-> ~ (BinInt.Z.le (BinInt.Z.of_nat 1) k /\ BinInt.Z.lt (BinInt.Z.mul (BinInt.Z.of_nat 5) k) (BinInt.Z.mul (BinInt.Z.of_nat 4) (BinInt.Z.max n d)))).
Proof. exact auto_large_spec. Qed.
Print Assumptions C05_auto_solver_large.

Theorem C05_explicit_solver_kept :
  forall (s : solver) (n d k : BinNums.Z),
    (s <> SAuto -> resolve_solver s n d k = s) /\ resolve_solver s n d k <> SAuto.
Proof. exact explicit_solver_kept. Qed.
Print Assumptions C05_explicit_solver_kept.

(* [solver_examples_stmt]: (n, d, k) = (499,3,4), (500,3,4) -> full; (501,3,4), (5,501,3) -> randomized;
   (501,3,401) -> full; explicit arpack kept *)
Example C05_solver_nonvacuous : solver_examples_stmt.
Proof. exact solver_examples. Qed.
