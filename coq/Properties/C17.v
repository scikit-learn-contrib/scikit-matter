(* C17 — SparseKDE is a well-formed mixture consistent with its Voronoi assignment.
   The statements, each proved by `exact <lemma>` or by a few lines that instantiate the general
   lemmas of Proofs/: first the exact layer D (Model/SparseKDE.v, SparseKDEM.v; Proofs/SparseKDEP.v,
   stdlib), then the numerical part (Model/SparseKDEA.v, SparseKDEH.v; Proofs/SparseKDEAP.v,
   SparseKDEBP.v, SparseKDEHP.v, mathcomp) in the second half of this file.

   [predict cell G D sw] is _NearestGridAssigner.predict on grid G, descriptors D, sample
   weights sw under the metric periodic_pairwise_euclidean_distances(squared=True,
   cell_length=cell) ([pdist]); None models the exception numpy raises for an empty grid.
   [assign cell G D w] feeds it the constructor-normalised weights. *)
From Verif Require Import ListX ListXP SparseKDE SparseKDEM SparseKDEP.
From Coq Require Import QArith Permutation.
Open Scope Z_scope.

(* each descriptor is labelled with a grid point of minimal distance under the (periodic)
   metric, the first such index on ties *)
Theorem C17_assignment_nearest :
  forall cell G D sw s, predict cell G D sw = Some s ->
    length (labels s) = length D /\
    forall i, (i < length D)%nat ->
      let j := nth i (labels s) O in
      let p := nth i D [] in
      (j < length G)%nat /\
      (forall k, (k < length G)%nat -> pdist cell p (nth j G []) <= pdist cell p (nth k G [])) /\
      (forall k, (k < j)%nat -> pdist cell p (nth j G []) < pdist cell p (nth k G [])).
Proof. exact assignment_nearest. Qed.
Print Assumptions C17_assignment_nearest.

(* the member lists are exactly the label classes (in increasing order), they partition the
   descriptors, the counts are their lengths, grid_weight[j] is the sum of the weights of the
   descriptors assigned to j, and the grid weights total the descriptor weights *)
Theorem C17_weights_partition :
  forall cell G D sw s, predict cell G D sw = Some s -> length sw = length D ->
    length (members s) = length G /\ length (gweight s) = length G /\
    length (npoints s) = length G /\
    (forall j, (j < length G)%nat ->
       nth j (members s) [] = members_of (labels s) j /\
       nth j (npoints s) 0 = Z.of_nat (length (nth j (members s) [])) /\
       (nth j (gweight s) 0 == qsum (map (fun i => nth i sw 0%Q) (nth j (members s) [])))%Q) /\
    (forall i, (i < length D)%nat ->
       exists j, (j < length G)%nat /\ In i (nth j (members s) []) /\
                 forall j', (j' < length G)%nat -> In i (nth j' (members s) []) -> j' = j) /\
    Permutation (concat (members s)) (seq 0 (length D)) /\
    (qsum (gweight s) == qsum sw)%Q.
Proof.
  intros cell G D sw s. destruct (predict_is_predict_rows cell G D sw) as [-> Hok]. intros H Hsw.
  rewrite <- (map_length (drow cell G) D) in *. now apply weights_partition_metric.
Qed.
Print Assumptions C17_weights_partition.

(* after the constructor's normalisation (weights / sum, or ones / n) the descriptor weights
   and the grid weights total one, whenever the raw total is not zero *)
Theorem C17_weights_total :
  forall cell G D w s,
    (forall l, w = Some l -> length l = length D) ->
    ~ (qsum (raw_weights w (length D)) == 0)%Q ->
    assign cell G D w = Some s ->
    (qsum (norm_weights w (length D)) == 1)%Q /\ (qsum (gweight s) == 1)%Q.
Proof.
  intros cell G D w s Hl HW H. pose proof (norm_weights_total w (length D) HW) as H1.
  split; [exact H1|]. apply C17_weights_partition in H; [|now apply norm_weights_length].
  destruct H as (_ & _ & _ & _ & _ & _ & Ht). now rewrite Ht.
Qed.
Print Assumptions C17_weights_total.

(* translating grid and descriptors by the same vector changes nothing in the assignment
   (labels, counts, grid weights, member lists), free space or periodic *)
Theorem C17_translation_assignment :
  forall cell d t G D sw, length t = d -> dimsZ d G -> dimsZ d D ->
    predict cell (map (vaddZ t) G) (map (vaddZ t) D) sw = predict cell G D sw.
Proof.
  intros cell d t G D sw Ht HG HD.
  apply (predict_similar 1 _ _ _ _ _ _ _ _ _ eq_refl (dims_map d _ G HG) (dims_map d _ D HD)).
  intros p p' g g' (Hp & ->) (Hg & ->). rewrite pdist_translate by congruence. lia.
Qed.
Print Assumptions C17_translation_assignment.

(* with a cell: replacing every grid point and every descriptor by an arbitrary periodic image
   (each its own integer multiples of the cell lengths) changes nothing in the assignment *)
Theorem C17_images_assignment :
  forall c d G G' D D' sw,
    cell_pos c -> length c = d -> dimsZ d G -> dimsZ d D ->
    Forall2 (image_of c) G G' -> Forall2 (image_of c) D D' ->
    predict (Some c) G' D' sw = predict (Some c) G D sw.
Proof.
  intros c d G G' D D' sw Hc Hd HG HD HGG HDD.
  apply (predict_similar 1 _ _ _ _ _ _ _ _ _ eq_refl (Forall2_and_l _ _ _ _ HG HGG)
                         (Forall2_and_l _ _ _ _ HD HDD)).
  intros p p' g g' (Hp & m & Hm & ->) (Hg & m' & Hm' & ->). rewrite pdist_image by congruence. lia.
Qed.
Print Assumptions C17_images_assignment.

(* the wrapped displacement is a minimum image: congruent to x modulo c and within half a cell *)
Theorem C17_minimum_image :
  forall c x, 0 < c -> - c <= 2 * wrap c x <= c /\ exists k, wrap c x = x - k * c.
Proof. exact wrap_bound. Qed.
Print Assumptions C17_minimum_image.

(* homogeneity (justifies feeding dyadic data as scaled integers) *)
Theorem C17_scale_assignment :
  forall k cell G D sw, 0 < k -> (forall c, cell = Some c -> cell_pos c) ->
    predict (cscale k cell) (map (vscale k) G) (map (vscale k) D) sw = predict cell G D sw.
Proof.
  intros k cell G D sw Hk Hc. assert (HK : 0 < k * k) by nia.
  apply (predict_similar (k * k) (fun g g' => g' = vscale k g) (fun p p' => p' = vscale k p)); auto;
    try (apply Forall2_map_l_in; reflexivity).
  intros p p' g g' -> ->. now apply pdist_scale.
Qed.
Print Assumptions C17_scale_assignment.

(* non-vacuity: a periodic instance with a distance tie (descriptor [2;0] is at squared distance
   4 from both grid points: first index wins), a wrap across the cell boundary (descriptor [7;7]
   is nearest to [0;0] through the boundary of the 8x8 cell) and unequal weights *)
Example C17_nonvacuous_assignment :
  let c := [8; 8] in
  let G := [[0; 0]; [4; 0]] in
  let D := [[2; 0]; [7; 7]; [5; 1]; [3; 0]] in
  let w := Some [1#1; 2#1; 4#1; 1#1]%Q in
  cell_pos c /\ dimsZ 2 G /\ dimsZ 2 D /\
  exists s, assign (Some c) G D w = Some s /\
    labels s = [0; 0; 1; 1]%nat /\ members s = [[0; 1]; [2; 3]]%nat /\ npoints s = [2; 2] /\
    ql_eqb (gweight s) [3#8; 5#8]%Q = true /\
    pdist (Some c) [2; 0] [0; 0] = 4 /\ pdist (Some c) [2; 0] [4; 0] = 4 /\
    pdist (Some c) [7; 7] [0; 0] = 2.
Proof.
  cbv zeta. split; [repeat constructor|]. split; [repeat constructor|]. split; [repeat constructor|].
  eexists. split; [vm_compute; reflexivity|]. repeat split; vm_compute; reflexivity.
Qed.

(* _NearestGridAssigner.predict sees positions only through self.metric: [predict_rows ng rows sw] is
   the same loop fed with the metric's own rows, rows[i][k] = metric(descriptor i, grid point k), for
   an ARBITRARY metric (Model/SparseKDEM.v). *)

(* each descriptor is labelled with a grid point of minimal distance UNDER THE CHOSEN METRIC, the first
   such index on ties *)
Theorem C17_assignment_nearest_metric :
  forall ng rows sw s, predict_rows ng rows sw = Some s -> rows_ok ng rows ->
    length (labels s) = length rows /\
    forall i, (i < length rows)%nat ->
      let j := nth i (labels s) O in
      let r := nth i rows [] in
      (j < ng)%nat /\
      (forall k, (k < ng)%nat -> nth j r 0 <= nth k r 0) /\
      (forall k, (k < j)%nat -> nth j r 0 < nth k r 0).
Proof. exact assignment_nearest_metric. Qed.
Print Assumptions C17_assignment_nearest_metric.

(* member lists = label classes, a partition of the descriptors; counts; grid weights = sums of the
   assigned weights, totalling the descriptor weights - whatever the metric *)
Theorem C17_weights_partition_metric :
  forall ng rows sw s, predict_rows ng rows sw = Some s -> rows_ok ng rows -> length sw = length rows ->
    length (members s) = ng /\ length (gweight s) = ng /\ length (npoints s) = ng /\
    (forall j, (j < ng)%nat ->
       nth j (members s) [] = members_of (labels s) j /\
       nth j (npoints s) 0 = Z.of_nat (length (nth j (members s) [])) /\
       (nth j (gweight s) 0 == qsum (map (fun i => nth i sw 0%Q) (nth j (members s) [])))%Q) /\
    (forall i, (i < length rows)%nat ->
       exists j, (j < ng)%nat /\ In i (nth j (members s) []) /\
                 forall j', (j' < ng)%nat -> In i (nth j' (members s) []) -> j' = j) /\
    Permutation (concat (members s)) (seq 0 (length rows)) /\
    (qsum (gweight s) == qsum sw)%Q.
Proof. exact weights_partition_metric. Qed.
Print Assumptions C17_weights_partition_metric.

(* the default metric is the instance: rows of the (periodic) squared Euclidean distance *)
Theorem C17_default_metric_instance :
  forall cell G D sw,
    predict cell G D sw = predict_rows (length G) (map (drow cell G) D) sw /\
    rows_ok (length G) (map (drow cell G) D).
Proof. exact predict_is_predict_rows. Qed.
Print Assumptions C17_default_metric_instance.

(* non-vacuity: the rows decide, not positions.  Two grid points, three descriptors with metric rows
   [7; 3], [2; 2] (a tie: first index), [5; 9] and weights 1, 1, 2: labels [1; 0; 0], member lists
   [[1; 2]; [0]], grid weights 3/4 and 1/4 *)
Example C17_nonvacuous_metric :
  exists s, assign_rows 2 [[7; 3]; [2; 2]; [5; 9]] (Some [1#1; 1#1; 2#1]%Q) = Some s /\
    rows_ok 2 [[7; 3]; [2; 2]; [5; 9]] /\
    labels s = [1; 0; 0]%nat /\ members s = [[1; 2]; [0]]%nat /\ npoints s = [2; 1] /\
    ql_eqb (gweight s) [3#4; 1#4]%Q = true.
Proof.
  eexists. split; [vm_compute; reflexivity|]. split; [repeat constructor|].
  repeat split; vm_compute; reflexivity.
Qed.

(* The numerical part.  The routines of Model/SparseKDEA.v are
   written once over a record of scalar operations; [rops fexp flog frnd] interprets them over an
   arbitrary real closed field F with UNINTERPRETED exp, log and np.round, [fops] over binary64
   (what the correspondence check runs).  -inf is None. *)
Close Scope Z_scope.
From mathcomp Require Import all_ssreflect all_algebra.
From Coq Require Import PrimFloat.
From Verif Require Import MExp MExpMx SparseKDEA SparseKDEH SparseKDEAP SparseKDEBP SparseKDEHP.
Import GRing.Theory Num.Theory.
Local Open Scope ring_scope.

(* score_samples(x) is the logarithm of the documented mixture
     mixture x = ( sum_j  [far x j]  W_j * gauss_j(x - g_j)
                        + [near x j] sum_{i in cell j, D_i <> x} w_i * gauss_j(D_i - x) ) / sum_j W_j
   (far = squared Mahalanobis distance of x to grid point j under bandwidth j beyond the cut-off
   (3(sqrt(dim)+1))^2; gauss_j(v) = exp(-(normkernel_j + v^T Hinv_j v)/2), v a minimum image when
   there is a cell), and -inf when the mixture vanishes.  exp and log enter only through the four
   laws assumed here (they hold for the real functions; no instance is constructed in Coq). *)
Theorem C17_mixture_formula :
  forall (F : rcfType) (fexp flog frnd : F -> F),
    (forall a b : F, fexp (a + b) = fexp a * fexp b) ->
    (forall a : F, 0 < fexp a) ->
    (forall a : F, 0 < a -> fexp (flog a) = a) ->
    (forall a : F, flog (fexp a) = a) ->
    forall (cell : option (seq F)) (G D : seq (seq F)) (w W : seq F) (mem : seq (seq nat))
           (Hinv : seq (seq (seq F))) (nk : seq F) (dim : BinNums.Z),
    (forall i : nat, 0 <= List.nth i w 0) ->
    (forall j : nat, 0 <= List.nth j W 0) ->
    forall x : seq F,
    0 < \sum_(v <- W) v ->
    score_point (rops fexp flog frnd) cell G D w W mem Hinv nk dim x =
    (if mixture fexp flog frnd cell G D w W mem Hinv nk dim x == 0 then None
     else Some (flog (mixture fexp flog frnd cell G D w W mem Hinv nk dim x))).
Proof. exact mixture_formula. Qed.
Print Assumptions C17_mixture_formula.

(* score is the sum of score_samples (-inf as soon as one of them is -inf) *)
Theorem C17_score_is_sum :
  forall (F : rcfType) (fexp flog frnd : F -> F) (cell : option (seq F)) (G D : seq (seq F))
         (w W : seq F) (mem : seq (seq nat)) (Hinv : seq (seq (seq F))) (nk : seq F)
         (dim : BinNums.Z) (Q : seq (seq F)),
    let l := score_samples (rops fexp flog frnd) cell G D w W mem Hinv nk dim Q in
    score (rops fexp flog frnd) cell G D w W mem Hinv nk dim Q =
    (if List.forallb (fun o : option F => match o with Some _ => true | None => false end) l
     then Some (\sum_(v <- somes l) v) else None).
Proof.
  by move=> F fexp flog frnd cell G D w W mem Hinv nk dim Q; rewrite /score /=; case: ifP => // _; rewrite nsumE.
Qed.
Print Assumptions C17_score_is_sum.

(* the free-space _covariance (mexp program cov_prog; variables 0 := X, 1 := local weights) is the
   weighted Gram matrix of the centred positions: symmetric, and positive semi-definite when the
   normalised weights are non-negative and 1 - sum p^2 > 0 *)
Theorem C17_covariance_psd :
  forall (F : rcfType) (n D : nat) (env : env_mx F),
    (eval_mx env (cov_prog n D))^T = eval_mx env (cov_prog n D) /\
    ((forall i : 'I_n, 0 <= eval_mx env (cp_p n) i ord0) ->
     0 < eval_mx env (cp_c n) ord0 ord0 -> psd (eval_mx env (cov_prog n D))).
Proof. by move=> F n D env; split; [exact: cov_prog_sym | exact: cov_prog_psd]. Qed.
Print Assumptions C17_covariance_psd.

(* "the localisation reaches at least one other grid point": two positive normalised local weights
   make the denominator 1 - sum p^2 of the covariance positive *)
Theorem C17_reach_positive :
  forall (F : rcfType) (n : nat) (p : 'I_n -> F) (i0 j0 : 'I_n),
    (forall i : 'I_n, 0 <= p i) -> \sum_i p i = 1 -> i0 != j0 -> 0 < p i0 -> 0 < p j0 ->
    0 < 1 - \sum_i p i * p i.
Proof. exact reach_pos. Qed.
Print Assumptions C17_reach_positive.

(* the bandwidth  h = s * ((1 - phi) cov + phi tr(cov)/D I)  produced by oas
   (phi = min(1, num/den) if den > 0 else 1; mexp program oas_prog, variables 0 := local covariance,
   1 := local population, 2 := Silverman factor s): the shrinkage weight satisfies
   0 < phi <= 1 and h is symmetric positive definite for every local population, provided the local
   covariance is symmetric positive semi-definite with positive trace and s > 0 (s is an exponential).
   The effective dimension enters only through s. *)
Theorem C17_bandwidth_spd :
  forall (F : rcfType) (D : nat) (env : env_mx F),
    (2 <= D)%N ->
    (env D D 0%N)^T = env D D 0%N -> psd (env D D 0%N) -> 0 < \tr (env D D 0%N) ->
    0 < (env 1%N 1%N 2%N) ord0 ord0 ->
    0 <= oas_psi D env < 1 /\
    eval_mx env (oas_prog D) =
      (env 1%N 1%N 2%N) ord0 ord0 *:
        (oas_psi D env *: env D D 0%N
         + ((1 - oas_psi D env) * (\tr (env D D 0%N) / D%:R)) *: 1%:M) /\
    (eval_mx env (oas_prog D))^T = eval_mx env (oas_prog D) /\ pd (eval_mx env (oas_prog D)).
Proof. exact bandwidth_spd_full. Qed.
Print Assumptions C17_bandwidth_spd.

(* one dimension: h = s * cov *)
Theorem C17_bandwidth_spd_dim1 :
  forall (F : rcfType) (env : env_mx F),
    0 < (env 1%N 1%N 0%N) ord0 ord0 -> 0 < (env 1%N 1%N 2%N) ord0 ord0 ->
    (eval_mx env (oas_prog 1))^T = eval_mx env (oas_prog 1) /\ pd (eval_mx env (oas_prog 1)).
Proof. exact bandwidth_spd_1. Qed.
Print Assumptions C17_bandwidth_spd_dim1.

(* free space, from the raw local weights: non-negative weights two of which are positive, the
   covariance computed by cov_prog having positive trace *)
Theorem C17_bandwidth_spd_free :
  forall (F : rcfType) (n D : nat) (envC envO : env_mx F) (i0 j0 : 'I_n),
    (forall i, 0 <= (envC n 1%N 1%N) i ord0) -> i0 != j0 ->
    0 < (envC n 1%N 1%N) i0 ord0 -> 0 < (envC n 1%N 1%N) j0 ord0 ->
    envO D D 0%N = eval_mx envC (cov_prog n D) ->
    (2 <= D)%N -> 0 < \tr (envO D D 0%N) -> 0 < (envO 1%N 1%N 2%N) ord0 ord0 ->
    (eval_mx envO (oas_prog D))^T = eval_mx envO (oas_prog D) /\ pd (eval_mx envO (oas_prog D)).
Proof. exact bandwidth_spd_free. Qed.
Print Assumptions C17_bandwidth_spd_free.

(* non-vacuity of the bandwidth hypotheses, over every real closed field: identity covariance in
   two dimensions, s = 1 *)
Example C17_nonvacuous_bandwidth :
  forall F : rcfType, exists env : env_mx F,
    (env 2%N 2%N 0%N)^T = env 2%N 2%N 0%N /\ psd (env 2%N 2%N 0%N) /\ 0 < \tr (env 2%N 2%N 0%N) /\
    0 < (env 1%N 1%N 2%N) ord0 ord0.
Proof. exact nonvacuous_bandwidth. Qed.

(* non-vacuity of the mixture model: a run of the very same definition on binary64.  One dimension,
   unit bandwidths; the query is descriptor 0 (excluded by the descriptor <> query filter), grid
   point 0 is near (member 1 contributes), grid point 1 is far (d2 = 100 > 36): the value is
   log(0.25 N(1) + 0.5 N(10)) = -2.80523289432456... *)
Example C17_nonvacuous_mixture :
  let nk := 0x1.d67f1c864beb4p+0%float in
  match score_point fops None [:: [:: 0%float]; [:: 10%float]]
          [:: [:: 0%float]; [:: 1%float]; [:: 10%float]]
          [:: 0.25%float; 0.25%float; 0.5%float] [:: 0.5%float; 0.5%float]
          [:: [:: 0%N; 1%N]; [:: 2%N]] [:: [:: [:: 1%float]]; [:: [:: 1%float]]]
          [:: nk; nk] (BinNums.Zpos BinNums.xH) [:: 0%float] with
  | Some v => close1 0x1p-40 0 v (-0x1.6711df1964ca5p+1)%float
  | None => false
  end = true.
Proof. by vm_compute. Qed.

(* the weighted Gram matrix both branches of _covariance end with (mexp program gram_prog; variables
   0 := the displacements xxm from WHATEVER centre, wrapped into the cell or not, 1 := local weights)
   is symmetric, positive semi-definite, and has positive trace as soon as one point of positive
   weight is displaced.  This covers the periodic branch: nothing is assumed about its circular mean. *)
Theorem C17_covariance_psd_any_centre :
  forall (F : rcfType) (n D : nat) (env : env_mx F),
    (eval_mx env (gram_prog n D))^T = eval_mx env (gram_prog n D) /\
    ((forall i : 'I_n, 0 <= eval_mx env (cp_p n) i ord0) -> 0 < eval_mx env (cp_c n) ord0 ord0 ->
     psd (eval_mx env (gram_prog n D)) /\
     forall i : 'I_n, 0 < eval_mx env (cp_p n) i ord0 -> row i (env n D 0%N) != 0 ->
       0 < \tr (eval_mx env (gram_prog n D))).
Proof.
  move=> F n D env; split; first exact: gram_prog_sym.
  move=> HP Hc; split; first exact: gram_prog_psd.
  by move=> i Hi Hr; exact: gram_prog_trace_pos Hi Hr.
Qed.
Print Assumptions C17_covariance_psd_any_centre.

(* free space, from the raw local weights and the grid positions alone: non-negative local weights,
   two grid points of positive local weight at DIFFERENT positions ("the localisation reaches at least
   one other grid point"), at least two dimensions, a positive Silverman factor (an exponential):
   the bandwidth is symmetric positive definite, for every local population and effective dimension.
   No hypothesis on the covariance (PSD, trace) is left. *)
Theorem C17_bandwidth_spd_reach :
  forall (F : rcfType) (n D : nat) (envC envO : env_mx F) (i0 j0 : 'I_n),
    (forall i, 0 <= (envC n 1%N 1%N) i ord0) ->
    0 < (envC n 1%N 1%N) i0 ord0 -> 0 < (envC n 1%N 1%N) j0 ord0 ->
    row i0 (envC n D 0%N) != row j0 (envC n D 0%N) ->
    envO D D 0%N = eval_mx envC (cov_prog n D) ->
    (2 <= D)%N -> 0 < (envO 1%N 1%N 2%N) ord0 ord0 ->
    (eval_mx envO (oas_prog D))^T = eval_mx envO (oas_prog D) /\ pd (eval_mx envO (oas_prog D)).
Proof. exact bandwidth_spd_reach. Qed.
Print Assumptions C17_bandwidth_spd_reach.

(* with a cell: the local covariance is gram_prog on the wrapped displacements from the circular mean
   (variable 0 of envC), whatever that mean is: two positive local weights and one reached grid point
   that does not sit on the centre make the bandwidth symmetric positive definite *)
Theorem C17_bandwidth_spd_periodic :
  forall (F : rcfType) (n D : nat) (envC envO : env_mx F) (i0 j0 k0 : 'I_n),
    (forall i, 0 <= (envC n 1%N 1%N) i ord0) -> i0 != j0 ->
    0 < (envC n 1%N 1%N) i0 ord0 -> 0 < (envC n 1%N 1%N) j0 ord0 ->
    0 < (envC n 1%N 1%N) k0 ord0 -> row k0 (envC n D 0%N) != 0 ->
    envO D D 0%N = eval_mx envC (gram_prog n D) ->
    (2 <= D)%N -> 0 < (envO 1%N 1%N 2%N) ord0 ord0 ->
    (eval_mx envO (oas_prog D))^T = eval_mx envO (oas_prog D) /\ pd (eval_mx envO (oas_prog D)).
Proof. exact bandwidth_spd_periodic. Qed.
Print Assumptions C17_bandwidth_spd_periodic.

(* non-vacuity of C17_bandwidth_spd_reach over every real closed field: three grid points in the
   plane, (0,0), (1,0), (0,1), unit local weights, unit Silverman factor *)
Example C17_nonvacuous_reach :
  forall F : rcfType, exists (envC : env_mx F) (i0 j0 : 'I_3),
    (forall i, 0 <= (envC 3%N 1%N 1%N) i ord0) /\
    0 < (envC 3%N 1%N 1%N) i0 ord0 /\ 0 < (envC 3%N 1%N 1%N) j0 ord0 /\
    row i0 (envC 3%N 2%N 0%N) != row j0 (envC 3%N 2%N 0%N).
Proof.
  move=> F.
  exists (fun (m n k : nat) => if k is 0%N then \matrix_(i, j) (((i : nat) == (j : nat).+1)%:R)
                               else const_mx 1).
  exists ord0, (lift ord0 ord0).
  split; first by move=> i; rewrite mxE ler01.
  split; first by rewrite mxE ltr01.
  split; first by rewrite mxE ltr01.
  apply/eqP => /rowP /(_ ord0). rewrite !mxE /=. move/eqP. by rewrite eq_sym oner_eq0.
Qed.

(* score_samples depends on the positions only through differences: adding one vector t to every grid
   point, every descriptor and the query changes nothing, for the same fitted weights, member lists,
   inverse bandwidths and normalisations (rows no longer than t, i.e. of the dimension of t).
   With C17_translation_assignment (labels, member lists, grid weights unchanged) this leaves the
   bandwidths as the only part of the invariance clause without a theorem. *)
Theorem C17_translation_mixture :
  forall (F : rcfType) (fexp flog frnd : F -> F) (G D : seq (seq F)) (w W : seq F)
         (mem : seq (seq nat)) (Hinv : seq (seq (seq F))) (nk : seq F) (dim : BinNums.Z) (t : seq F),
    (forall r, List.In r G -> (size r <= size t)%N) ->
    (forall r, List.In r D -> (size r <= size t)%N) ->
    forall x : seq F,
    score_point (rops fexp flog frnd) None (List.map (vaddF t) G) (List.map (vaddF t) D) w W mem
                Hinv nk dim (vaddF t x)
    = score_point (rops fexp flog frnd) None G D w W mem Hinv nk dim x.
Proof. exact score_point_translate. Qed.
Print Assumptions C17_translation_mixture.

(* the estimator OBJECT: histories of calls (Model/SparseKDEH.v) *)
(* [krun fitf invf nkf needs_nk scoref peekf (kinit p) ops] runs the operations ops (OFit g = fit(g);
   OScore q = score_samples(q)/score(q); OPeek = reading bandwidth_/_sample_weights; OSet p' =
   assigning the public attributes) on an object constructed with parameters p, for ARBITRARY
   functions computing a fit, the cached inverse bandwidths / normalisations, and the score. *)

(* in every reachable state the lazily filled caches _bandwidth_inv_ / _normkernels_ are empty or
   hold what the CURRENT fit determines *)
Theorem C17_cache_coherent :
  forall (P G S CI CN Qy O : Type) (fitf : P -> G -> S) (invf : S -> CI) (nkf : S -> CN)
         (needs_nk : S -> Qy -> bool) (scoref : P -> S -> CI -> CN -> Qy -> O) (peekf : S -> O)
         (p : P) (ops : seq (@kop P G Qy)),
    coherent invf nkf (krun fitf invf nkf needs_nk scoref peekf (kinit p) ops).1.
Proof. exact reachable_coherent. Qed.
Print Assumptions C17_cache_coherent.

(* after ANY history, score_samples answers from the parameters in force, the LAST fit and the
   inverse / normalisation belonging to that fit (never from earlier fits, queries or caches);
   on an object that was never fitted it raises (None) *)
Theorem C17_score_after_history :
  forall (P G S CI CN Qy O : Type) (fitf : P -> G -> S) (invf : S -> CI) (nkf : S -> CN)
         (needs_nk : S -> Qy -> bool) (scoref : P -> S -> CI -> CN -> Qy -> O) (peekf : S -> O)
         (p0 : P) (h : seq (@kop P G Qy)) (q : Qy),
    (kstep fitf invf nkf needs_nk scoref peekf
           (krun fitf invf nkf needs_nk scoref peekf (kinit p0) h).1 (OScore q)).2 =
    let pf := last_fit fitf p0 None h in
    omap (fun f => scoref pf.1 f (invf f) (nkf f) q) pf.2.
Proof. exact score_after_history. Qed.
Print Assumptions C17_score_after_history.

(* re-fitting an object is fitting a fresh object constructed with the parameters in force: the
   complete states coincide, so everything observable afterwards (any continuation h') coincides *)
Theorem C17_refit_is_fresh_fit :
  forall (P G S CI CN Qy O : Type) (fitf : P -> G -> S) (invf : S -> CI) (nkf : S -> CN)
         (needs_nk : S -> Qy -> bool) (scoref : P -> S -> CI -> CN -> Qy -> O) (peekf : S -> O)
         (p0 : P) (h : seq (@kop P G Qy)) (g : G) (h' : seq (@kop P G Qy)),
    let run := krun fitf invf nkf needs_nk scoref peekf in
    let s := (run (kinit p0) h).1 in
    run (kinit p0) (h ++ OFit g :: h') =
    ((run (kinit (k_pars s)) (OFit g :: h')).1,
     (run (kinit p0) h).2 ++ (run (kinit (k_pars s)) (OFit g :: h')).2).
Proof. by move=> P G S CI CN Qy O fitf invf nkf needs_nk scoref peekf p0 h g h' run s; rewrite /run krun_cat. Qed.
Print Assumptions C17_refit_is_fresh_fit.

(* the instance with the routines of Model/SparseKDEA.v over a real closed field: after ANY history
   whose last fit produced f under parameters p, score_samples(q) is, query by query, the logarithm
   of the documented mixture of THAT fit (C17_mixture_formula), and score is the model's score *)
Theorem C17_history_mixture :
  forall (F : rcfType) (fexp flog frnd : F -> F),
    (forall a b : F, fexp (a + b) = fexp a * fexp b) ->
    (forall a : F, 0 < fexp a) ->
    (forall a : F, 0 < a -> fexp (flog a) = a) ->
    (forall a : F, flog (fexp a) = a) ->
    let N := rops fexp flog frnd in
    forall (Gt : Type) (fitf : kpars N -> Gt -> kfit N) (invf : kfit N -> seq (seq (seq F)))
           (nkf : kfit N -> seq F) (p0 : kpars N) (h : seq (@kop (kpars N) Gt (seq (seq F))))
           (q : seq (seq F)) (p : kpars N) (f : kfit N),
    last_fit fitf p0 None h = (p, Some f) ->
    (forall i : nat, 0 <= List.nth i (kp_w N p) 0) ->
    (forall j : nat, 0 <= List.nth j (kf_W N f) 0) ->
    0 < \sum_(v <- kf_W N f) v ->
    (kstep fitf invf nkf (@kde_needs_nk N) (@kde_scoref N) (@kde_peekf N)
           (krun fitf invf nkf (@kde_needs_nk N) (@kde_scoref N) (@kde_peekf N) (kinit p0) h).1
           (OScore q)).2
    = Some (@KScores N (List.map (log_mixture invf nkf p f) q)
              (score N (kp_cell N p) (kf_G N f) (kp_D N p) (kp_w N p) (kf_W N f) (kf_mem N f)
                     (invf f) (nkf f) (kp_dim N p) q)).
Proof. exact history_mixture. Qed.
Print Assumptions C17_history_mixture.

(* non-vacuity of the machine: fit(1), score(5), fit(2), score(7) on an object with parameter 10;
   a fit is p + g, the caches are 2 * fit and 3 * fit.  The second score shows the caches of the
   SECOND fit (24, 36), not those filled after the first one (22, 33). *)
Example C17_nonvacuous_history :
  (krun (fun p g : nat => (p + g)%N) (fun f => (2 * f)%N) (fun f => (3 * f)%N) (fun _ _ : nat => true)
        (fun p f ci cn q : nat => [:: p; f; ci; cn; q]) (fun f => [:: f])
        (kinit 10%N) [:: OFit 1%N; OScore 5%N; OFit 2%N; OPeek; OScore 7%N]).2
  = [:: None; Some [:: 10; 11; 22; 33; 5]%N; None; Some [:: 12%N]; Some [:: 10; 12; 24; 36; 7]%N].
Proof. by vm_compute. Qed.
