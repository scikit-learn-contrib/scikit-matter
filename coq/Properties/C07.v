(* C07 - CUR and PCov-CUR select by leverage score on the orthogonalised residual.
   The statements; a proof is `exact <lemma>` where the lemma is proved in Proofs/ (CURSchedP.v,
   CURHistSchedP.v: layer D, stdlib style; CURLoopP.v, CURLoopEx.v, CURHistP.v: layer A, ssreflect
   style) and a few lines where the statement is an instance or a conjunction of lemmas from there.

   Layer D (Model/CURSched.v): the refresh schedule, the zeroing pi_[last] = 0 and the masked
   first arg-max of _CUR / _PCovCUR as a scorer of the generic greedy loop [run] of
   Model/Greedy.v.  The importance vectors computed by _compute_pi are an arbitrary stream [R]
   of integer vectors (order-preserving codes of the binary64 scores).
     [c_run re cand t k g]  the loop `for n in range(k)` with recompute_every = re and score
                            threshold t, from state g;  [g_cold R] = state after
                            _init_greedy_search;  [g_warm g] = after _continue_greedy_search
     [best_wrt n V chosen i]  i < n is not in [chosen] and is the FIRST maximiser of V among the
                            items not in [chosen]
     [force_idx re j]       = j / re (re <> 0), 0 (re = 0): number of the refresh vector in force
                            when the j-th selection of a cold start is made
     [idx_steps re m c k]   the same for a loop that starts with m selections and vector number c
     [GInv cst cand None (cP cand) g]  the loop invariant of Proofs/GreedyP.v (selections distinct
                            and in range, buffers filled from them) with the scorer's part [cP]
                            of Proofs/CURSchedP.v: every vector has one entry per candidate

   Layer A (Model/CURLoop.v, Model/CURLoopMx.v): X_orthogonalizer, Y_feature_orthogonalizer,
   Y_sample_orthogonalizer and the importance score as [mexp] programs; the theorems are about
   their interpretation [eval_mx] over an ARBITRARY real closed field F and ALL shapes.
   LAPACK / ARPACK answers (pinv, lstsq, eigh, svds, eigsh) are variables constrained by the
   hypotheses spelled out in each statement; the correspondence check validates them numerically
   on every run.  The predicates of the statements are defined next to their lemmas:
   [orth_to], [in_span] (the two conditions that characterise the projection residual), [lsq]
   (least-squares residual on the first t selected columns), [hints_ok], [lstsq_ok] (hypotheses on
   the pinv / lstsq answers) in Proofs/CURLoopP.v, [events_ok] in Proofs/CURHistP.v. *)
From Verif Require Import ListX Greedy GreedyP CURSched CURSchedP.

(* Cold start, EVERY number of candidates n, EVERY recompute_every, EVERY score threshold, ANY
   number of steps k: the j-th selection is the first maximiser, among the items not selected
   before it, of the refresh vector number j / recompute_every (0 when recompute_every = 0) -
   i.e. of the importance score as of the most recent refresh - and the stream is never
   exhausted (c_ok). *)
Theorem C07_step_argmax :
  forall (n re : nat) (R : list (list Z)) (t : thr) (k : nat) (g' : gst cst) (st : bool),
    Forall (fun r => length r = n) R ->
    (force_idx re k < length R)%nat ->
    c_run re (repeat [] n) t k (g_cold R) = (g', st) ->
    (length (sel g') <= k)%nat /\ (st = false -> length (sel g') = k) /\
    c_ok (sst g') = true /\
    forall j, (j < length (sel g'))%nat ->
      best_wrt n (nth (force_idx re j) R []) (firstn j (sel g')) (nth j (sel g') O).
Proof.
  intros n re R t k g' st. pose proof (step_argmax_cold re (repeat [] n) R t k g' st) as H.
  now rewrite repeat_length in H.
Qed.
Print Assumptions C07_step_argmax.

(* Warm start from any consistent state: the next refresh vector is loaded (whatever
   recompute_every is, nothing is zeroed) and the same schedule continues, counting ALL
   selections made so far. *)
Theorem C07_step_argmax_warm :
  forall (n re : nat) (t : thr) (k : nat) (g g' : gst cst) (st : bool),
    let cand := repeat (@nil Z) n in
    let R := c_vec (c_warm (sst g)) :: c_rest (c_warm (sst g)) in
    GInv cst cand None (cP cand) g -> c_nsel (sst g) = length (sel g) ->
    c_rest (sst g) <> [] ->
    (idx_after re (length (sel g)) 0 k < length R)%nat ->
    c_run re cand t k (g_warm g) = (g', st) ->
    exists new, sel g' = sel g ++ new /\ (length new <= k)%nat /\ (st = false -> length new = k) /\
      c_ok (sst g') = c_ok (sst g) /\
      forall j, (j < length new)%nat ->
        best_wrt n (nth (nth j (idx_steps re (length (sel g)) 0 k) O) R [])
                 (sel g ++ firstn j new) (nth j new O).
Proof.
  intros n re t k g g' st cand R HI Hn Hne. unfold R. rewrite (c_warm_stream _ Hne).
  pose proof (step_argmax_warm re cand (c_rest (sst g)) t k g g' st HI Hn eq_refl) as H.
  unfold cand in H. now rewrite repeat_length in H.
Qed.
Print Assumptions C07_step_argmax_warm.

(* the schedule in closed form *)
Theorem C07_schedule_closed_form :
  forall re m k, re <> O ->
    idx_steps re m (m / re) k = map (fun j => ((m + j) / re)%nat) (seq 0 k) /\
    idx_after re m (m / re) k = ((m + k) / re)%nat.
Proof. intros re m k H. split; [now apply idx_steps_closed|now apply idx_after_closed]. Qed.
Print Assumptions C07_schedule_closed_form.

Theorem C07_schedule_never :
  forall m c k, idx_steps 0 m c k = repeat c k /\ idx_after 0 m c k = c.
Proof. intros m c k. split; [apply idx_steps_re0|apply idx_after_re0]. Qed.
Print Assumptions C07_schedule_never.

(* non-vacuity: three candidates, recompute_every = 2, three steps; the second selection is taken
   on the stale first vector (the trace shows [5; 0; 7] at step 2, not [1; 0; 3]) *)
Example C07_nonvacuous_schedule :
  let R := [[5; 9; 7]; [1; 0; 3]] in
  Forall (fun r => length r = 3%nat) R /\ (force_idx 2 3 < length R)%nat /\
  sel (fst (c_run 2 (repeat [] 3) NoThr 3 (g_cold R))) = [1; 2; 0]%nat /\
  c_trace 2 (repeat [] 3) NoThr 3 (g_cold R) = [[5; 9; 7]; [5; 0; 7]; [1; 0; 0]].
Proof.
  cbv zeta. split; [repeat constructor|]. split; [vm_compute; lia|].
  split; vm_compute; reflexivity.
Qed.

(* layer D, histories on ONE estimator object (Model/CURHistSched.v)
   A history is a list of stages (recompute_every, n_to_select): the first is a cold fit, every
   later one is  set_params(recompute_every=re, n_to_select=k); fit(X, y, warm_start=True).
     [h_fit cand R sts]  final loop state and everything presented to the arg-max
     [h_idx sts]         number (in the stream R of refresh vectors) of the vector in force at each
                         selection: within a fit the schedule of THAT fit's recompute_every on the
                         global counter n_selected_; every warm start loads the next vector
     [h_last sts]        number of the last vector consumed
     [stages_ok n 0 sts] the n_to_select never decrease and never exceed the number of candidates
   EVERY number of candidates, EVERY history (any number of fits, any recompute_every per fit,
   incl. 0 -> non-zero and back, warm starts that add no selection): each selection is the first
   maximiser, among the items not selected before it, of the vector in force; all fits complete;
   exactly the vectors 0 .. h_last are consumed. *)
From Verif Require Import CURHistSched CURHistSchedP.

Theorem C07_history_argmax :
  forall (n : nat) (R : list (list Z)) (sts : list (nat * nat)) (g' : gst cst) (tr : list (list Z)),
    Forall (fun r => length r = n) R ->
    sts <> [] -> stages_ok n 0 sts ->
    (h_last sts < length R)%nat ->
    h_fit (repeat [] n) R sts = (g', tr) ->
    length (sel g') = length (h_idx sts) /\
    c_ok (sst g') = true /\
    c_rest (sst g') = skipn (S (h_last sts)) R /\
    forall j, (j < length (sel g'))%nat ->
      best_wrt n (nth (nth j (h_idx sts) O) R []) (firstn j (sel g')) (nth j (sel g') O).
Proof.
  intros n R sts g' tr. pose proof (history_argmax (repeat [] n) R sts g' tr) as H.
  now rewrite repeat_length in H.
Qed.
Print Assumptions C07_history_argmax.

(* non-vacuity: fit 1 with recompute_every = 0 selects two items on the first vector (the second
   on the stale score); set_params(recompute_every=1, n_to_select=3) + warm start loads the
   second vector (nothing zeroed: [1; 0; 3] is presented as it is) and selects the third item *)
Example C07_nonvacuous_history :
  let R := [[5; 9; 7]; [1; 0; 3]; [0; 0; 0]] in
  let sts := [(0, 2); (1, 3)]%nat in
  Forall (fun r => length r = 3%nat) R /\ stages_ok 3 0 sts /\ (h_last sts < length R)%nat /\
  sel (fst (h_fit (repeat [] 3) R sts)) = [1; 2; 0]%nat /\
  h_idx sts = [0; 0; 1]%nat /\
  snd (h_fit (repeat [] 3) R sts) = [[5; 9; 7]; [5; 0; 7]; [1; 0; 3]].
Proof.
  cbv zeta. split; [repeat constructor|]. split; [cbn; lia|]. split; [vm_compute; lia|].
  split; [vm_compute; reflexivity|]. split; vm_compute; reflexivity.
Qed.

From mathcomp Require Import all_ssreflect all_algebra.
From Verif Require Import MExpMx PCovR CURLoop CURLoopMx CURLoopP CURLoopEx CURHistMx CURHistP.
Import GRing.Theory Num.Theory.
Local Open Scope ring_scope.

(* X_orthogonalizer folded over the selected columns [sel] (in selection order, any length, with
   repetitions allowed), every pivot taking the normalising branch (its norm is at least the
   tolerance tol > 0):  Xc = orth_fold_mx tol X sel satisfies
     (i)   Xc^T X[:, j] = 0 for every selected j,
     (ii)  X - Xc = X B with the rows of B outside the selection zero, i.e. X - Xc = X[:, sel] B',
     (iii) the selected columns of Xc vanish (so the warm-start guard `norm > tolerance` of
           _continue_greedy_search never fires in exact arithmetic).
   (i) and (ii) characterise Xc = (I - Pi_sel) X: see C07_residual_unique.
   Sample selection applies the same program to X^T (resid_samp_mx). *)
Theorem C07_residual_is_projection :
  forall (F : rcfType) (r c : nat) (X : 'M[F]_(r, c)) (tol : F) (sel : seq 'I_c),
    0 < tol -> pivots_ok tol X sel ->
    let Xc := orth_fold_mx tol X sel in
    [/\ forall j, j \in sel -> Xc^T *m col j X = 0,
        exists B : 'M[F]_c, X - Xc = X *m B /\ forall i, i \notin sel -> row i B = 0
      & forall j, j \in sel -> col j Xc = 0].
Proof. exact residual_is_projection. Qed.
Print Assumptions C07_residual_is_projection.

(* consequence of (iii): the re-orthogonalisation guard of a warm start,
   norm(X_current_[:, j]) > tolerance * norm(X[:, j]), is false for every selected j *)
Theorem C07_warm_guard_quiet :
  forall (F : rcfType) (r c : nat) (X : 'M[F]_(r, c)) (tol : F) (sel : seq 'I_c) (j : 'I_c) (a : F),
    0 < tol -> pivots_ok tol X sel -> j \in sel -> 0 <= a ->
    ~~ (tol * a < pivot_norm_mx (orth_fold_mx tol X sel) j).
Proof. exact selected_guard_quiet. Qed.
Print Assumptions C07_warm_guard_quiet.

(* the two conditions (i), (ii) determine X_current_: it is (I - Pi_D) X and nothing else *)
Theorem C07_residual_unique :
  forall (F : rcfType) (r c : nat) (X : 'M[F]_(r, c)) (D : pred 'I_c) (Xc Xc' : 'M[F]_(r, c)),
    orth_to X D Xc -> in_span X D Xc -> orth_to X D Xc' -> in_span X D Xc' -> Xc = Xc'.
Proof. exact residual_unique. Qed.
Print Assumptions C07_residual_unique.

(* what one step is, as a formula: with pivot norm nu >= tol > 0 the program subtracts the
   outer product of the unit pivot direction u = col / nu, u^T u = 1
   ((c / nu)(c / nu)^T = c c^T / (c^T c)) *)
Theorem C07_step_formula :
  forall (F : rcfType) (r c : nat) (X : 'M[F]_(r, c)) (tol : F) (j : 'I_c),
    0 < tol -> tol <= pivot_norm_mx X j ->
    let nu := Num.sqrt (((col j X)^T *m col j X) ord0 ord0) in
    let u := nu^-1 *: col j X in
    [/\ pivot_norm_mx X j = nu, u^T *m u = 1%:M
      & orth_step_mx tol X j = X - u *m (u^T *m X)].
Proof.
  move=> F r c X tol j tpos Hn nu u; have [E npos] := step_formula tpos Hn.
  split; [exact: norm_formula|exact: unit_pivot|exact: E].
Qed.
Print Assumptions C07_step_formula.

(* Y_feature_orthogonalizer applied after every selection to the running y with the whole
   zero-padded X_selected_ buffer (width K_s, any K_s > s - 1) and ANY symmetric generalised
   inverse V_s handed back by pinv (hypotheses hints_ok: G V G = G, V^T = V for G = Xs^T Xs):
   the result z is THE least-squares residual of y on the selected columns Xs = buf T T
   (unpadded): Xs^T z = 0 and y - z = Xs b; hence z = y - Xs (Xs^T Xs)^+ Xs^T y for every
   symmetric generalised inverse.  Neither the padding nor the intermediate inverses matter. *)
Theorem C07_y_feature :
  forall (F : rcfType) (n m p : nat) (X : 'M[F]_(n, m)) (sel : seq nat) (y : 'M[F]_(n, p))
         (hs : seq (hintV F)),
    hints_ok X sel y 0 hs ->
    let T := size hs in
    let Xs := buf_mx X sel T T in
    let z := yfeat_fold_mx X sel 0 hs y in
    (Xs^T *m z = 0 /\ exists b : 'M[F]_(T, p), y - z = Xs *m b) /\
    forall V' : 'M[F]_T,
      Xs^T *m Xs *m V' *m (Xs^T *m Xs) = Xs^T *m Xs -> V'^T = V' ->
      z = y - Xs *m V' *m Xs^T *m y.
Proof. exact y_feature. Qed.
Print Assumptions C07_y_feature.

(* the least-squares residual of y on the first t selected columns is unique *)
Theorem C07_y_feature_unique :
  forall (F : rcfType) (n m p : nat) (X : 'M[F]_(n, m)) (sel : seq nat) (y : 'M[F]_(n, p)) t z z',
    lsq X sel y t z -> lsq X sel y t z' -> z = z'.
Proof. exact lsq_unique. Qed.
Print Assumptions C07_y_feature_unique.

(* Y_sample_orthogonalizer: y_cur = y - X W where W is constrained ONLY through the selected
   samples Xr = X_selected_[:t], Yr = y_selected_[:t] (normal equations + minimum norm
   W = Xr^T Z): the residual of the selected samples is orthogonal to them, it vanishes when the
   selected samples are linearly independent, and W (hence y_cur) is determined by the
   hypotheses. *)
Theorem C07_y_sample :
  forall (F : rcfType) (n m p t : nat) (X : 'M[F]_(n, m)) (y : 'M[F]_(n, p))
         (Xr : 'M[F]_(t, m)) (Yr : 'M[F]_(t, p)) (W : 'M[F]_(m, p)) (Z : 'M[F]_(t, p)),
    lstsq_ok X y Xr Yr W Z ->
    let ycur := eval_mx (ysamp_env_mx X y W Xr Yr Z) (ysamp_prog n m p) in
    [/\ ycur = y - X *m W,
        Xr^T *m (Yr - Xr *m W) = 0
      & Xr *m Xr^T \in unitmx -> Yr - Xr *m W = 0].
Proof. exact y_sample. Qed.
Print Assumptions C07_y_sample.

(* what the hypotheses on lstsq's answer W say: the normal equations of the selected samples,
   and W in their row space (minimum norm) *)
Theorem C07_y_sample_hypotheses :
  forall (F : rcfType) (n m p t : nat) (X : 'M[F]_(n, m)) (y : 'M[F]_(n, p))
         (Xr : 'M[F]_(t, m)) (Yr : 'M[F]_(t, p)) (W : 'M[F]_(m, p)) (Z : 'M[F]_(t, p)),
    lstsq_ok X y Xr Yr W Z <-> Xr^T *m (Xr *m W) = Xr^T *m Yr /\ W = Xr^T *m Z.
Proof. exact lstsq_okP. Qed.
Print Assumptions C07_y_sample_hypotheses.

(* those hypotheses determine W: y_current_ is a function of X, y and the selected samples *)
Theorem C07_y_sample_unique :
  forall (F : rcfType) (n m p t : nat) (X : 'M[F]_(n, m)) (y : 'M[F]_(n, p))
         (Xr : 'M[F]_(t, m)) (Yr : 'M[F]_(t, p)) W Z W' Z',
    lstsq_ok X y Xr Yr W Z -> lstsq_ok X y Xr Yr W' Z' -> W = W'.
Proof. exact lstsq_unique. Qed.
Print Assumptions C07_y_sample_unique.

(* the rows of y - X W at the selected samples are y[sel] - X[sel] W *)
Theorem C07_y_sample_rows :
  forall (F : rcfType) (n m p : nat) (X : 'M[F]_(n, m)) (y : 'M[F]_(n, p)) (W : 'M[F]_(m, p)) sel t,
    rows_mx (y - X *m W) sel t = rows_mx y sel t - rows_mx X sel t *m W.
Proof. exact rows_mx_resid. Qed.
Print Assumptions C07_y_sample_rows.

(* pi = (V o V) d as the code computes it depends on the eigenvector matrix V only through
   V diag(d) V^T; for d = d_k (k ones) that is V_k V_k^T, V_k = the first k columns:
   pi_j = (V_k V_k^T)_jj. *)
Theorem C07_pi_basis_independent :
  forall (F : rcfType) (N : nat) (V V' : 'M[F]_N) (d : 'cV[F]_N),
    V *m diag_mx d^T *m V^T = V' *m diag_mx d^T *m V'^T ->
    eval_mx (pi_env_mx V d) (pi_prog N) = eval_mx (pi_env_mx V' d) (pi_prog N).
Proof. by move=> F N V V' d H; apply/matrixP => i j; rewrite ord1 !pi_diag H. Qed.
Print Assumptions C07_pi_basis_independent.

(* with d = d_k the score of item i is the i-th diagonal entry of the projector V_k V_k^T *)
Theorem C07_pi_is_projector_diagonal :
  forall (F : rcfType) (N : nat) (V : 'M[F]_N) (k : nat) (i : 'I_N),
    let Vk : 'M[F]_(N, k) := V *m Esel F N k in
    eval_mx (pi_env_mx V (dk_mx F N k)) (pi_prog N) i ord0 = (Vk *m Vk^T) i i /\
    V *m diag_mx (dk_mx F N k)^T *m V^T = Vk *m Vk^T.
Proof. move=> F N V k i Vk; split; [exact: pi_topk|exact: topk_projector]. Qed.
Print Assumptions C07_pi_is_projector_diagonal.

(* the oracle's freedom does not matter: two complete orthonormal eigenbases V, V' of the same
   symmetric matrix M for the same eigenvalue vector lam, with a gap between the k-th and the
   (k+1)-th eigenvalue, have the same leading projector, hence give the same importance vector.
   (That lam itself is determined by M is not proved here; the check evaluates the model with
   numpy's decomposition and compares with ARPACK's through pi, gating gaps below 1e-6.) *)
Theorem C07_spectral_projector_unique :
  forall (F : rcfType) (N : nat) (M V V' : 'M[F]_N) (lam : 'cV[F]_N) (k : nat),
    M^T = M -> V^T *m V = 1%:M -> V'^T *m V' = 1%:M ->
    M *m V = V *m diag_mx lam^T -> M *m V' = V' *m diag_mx lam^T ->
    (forall i j : 'I_N, (i < k)%N -> (k <= j)%N -> lam j ord0 < lam i ord0) ->
    V *m diag_mx (dk_mx F N k)^T *m V^T = V' *m diag_mx (dk_mx F N k)^T *m V'^T.
Proof. exact spectral_projector_unique. Qed.
Print Assumptions C07_spectral_projector_unique.

(* hence every valid complete eigendecomposition gives the same importance vector *)
Theorem C07_pi_oracle_independent :
  forall (F : rcfType) (N : nat) (M V V' : 'M[F]_N) (lam : 'cV[F]_N) (k : nat),
    M^T = M -> V^T *m V = 1%:M -> V'^T *m V' = 1%:M ->
    M *m V = V *m diag_mx lam^T -> M *m V' = V' *m diag_mx lam^T ->
    (forall i j : 'I_N, (i < k)%N -> (k <= j)%N -> lam j ord0 < lam i ord0) ->
    eval_mx (pi_env_mx V (dk_mx F N k)) (pi_prog N)
    = eval_mx (pi_env_mx V' (dk_mx F N k)) (pi_prog N).
Proof.
  move=> F N M V V' lam k Ms VO VO' VE VE' gap.
  exact: C07_pi_basis_independent (spectral_projector_unique Ms VO VO' VE VE' gap).
Qed.
Print Assumptions C07_pi_oracle_independent.

(* mixing = 1: PCov-CUR decomposes X X^T (samples) resp. X^T X (features), the matrices of CUR,
   whatever y and the inner eigh oracle are.
   PARTIAL w.r.t. the full statement "PCov-CUR with mixing = 1 SELECTS what CUR selects": proved
   are the equality of the decomposed matrices (here; the residual X is computed by the same
   program for both), that the importance vector is the same for every valid eigen-oracle answer
   with the same eigenvalues (C07_pi_oracle_independent) and that the selections are a function of
   the importance vectors (C07_step_argmax: c_run is a Gallina function).  Missing: that two sorted
   eigendecompositions of one matrix have the same eigenvalue vector. *)
Theorem C07_mixing_one_partial :
  forall (F : rcfType) (n m p : nat) (env : env_mx F),
    env 1%N 1%N va ord0 ord0 = 1 ->
    eval_mx env (kern_prog n m p) = eval_mx env (gram_prog n m) /\
    eval_mx env (cov_prog n m p) = eval_mx env (xtx_prog n m).
Proof. exact mixing_one. Qed.
Print Assumptions C07_mixing_one_partial.

(* sample CUR on X = feature CUR on X^T: the residuals are transposes of each other for every
   selection sequence, and the matrix sample CUR decomposes for a residual Y (Y Y^T) is the one
   feature CUR decomposes for Y^T; the importance vectors, hence by C07_step_argmax the
   selections, then coincide.  Singular vectors = eigenvectors of these matrices: C07_svd_gram.
   PARTIAL in the same sense as C07_mixing_one_partial (equal matrices and residuals are proved; the
   end-to-end equality of the selections additionally needs the uniqueness of the eigenvalues). *)
Theorem C07_duality_partial :
  forall (F : rcfType) (n m : nat) (tol : F) (X : 'M[F]_(n, m)) (sel : seq 'I_n),
    resid_samp_mx tol X sel = (resid_feat_mx tol X^T sel)^T /\
    forall Y : 'M[F]_(n, m),
      eval_mx (envX Y) (gram_prog n m) = eval_mx (envXt Y) (xtx_prog m n).
Proof. exact duality. Qed.
Print Assumptions C07_duality_partial.

(* the singular vectors svds returns for X_current_ are eigenvectors of X X^T resp. X^T X, the
   matrices the model decomposes *)
Theorem C07_svd_gram :
  forall (F : rcfType) (n m k : nat) (X : 'M[F]_(n, m)) (U : 'M[F]_(n, k)) (V : 'M[F]_(m, k))
         (s : 'rV[F]_k),
    X = U *m diag_mx s *m V^T -> U^T *m U = 1%:M -> V^T *m V = 1%:M ->
    (X *m X^T) *m U = U *m (diag_mx s *m diag_mx s) /\
    (X^T *m X) *m V = V *m (diag_mx s *m diag_mx s).
Proof. exact svd_gram. Qed.
Print Assumptions C07_svd_gram.

(* non-vacuity of the layer-A hypotheses (over every real closed field) *)
Example C07_nonvacuous_pivots :
  forall F : rcfType,
    (0 < (1 : F) /\ pivots_ok 1 (exX F) [:: ord0]) /\ orth_fold_mx 1 (exX F) [:: ord0] != exX F.
Proof. exact (fun F => conj (ex_pivots F) (ex_residual_moves F)). Qed.

Example C07_nonvacuous_spectral :
  forall F : rcfType,
    let M := diag_mx (exlam F)^T in
    [/\ M^T = M, (1%:M : 'M[F]_2)^T *m 1%:M = 1%:M, (exV' F)^T *m exV' F = 1%:M,
        M *m 1%:M = 1%:M *m diag_mx (exlam F)^T & M *m exV' F = exV' F *m diag_mx (exlam F)^T]
    /\ (forall i j : 'I_2, (i < 1)%N -> (1 <= j)%N -> exlam F j ord0 < exlam F i ord0)
    /\ exV' F != 1%:M.
Proof. exact ex_spectral. Qed.

Example C07_nonvacuous_hints :
  forall (F : rcfType) (y0 : 'M[F]_(1, 1)),
    hints_ok (1%:M : 'M[F]_1) [:: 0%N] y0 0 [:: existT _ 1%N (1%:M : 'M[F]_1)].
Proof. exact ex_hints. Qed.

Example C07_nonvacuous_lstsq :
  forall (F : rcfType) n p t (X : 'M[F]_(n, t)) (y : 'M[F]_(n, p)) (Yr : 'M[F]_(t, p)),
    lstsq_ok X y (1%:M : 'M[F]_t) Yr Yr Yr.
Proof. exact ex_lstsq. Qed.

(* layer A, histories (Model/CURHistMx.v) *)

(* The re-orthogonalisation loop of _continue_greedy_search WITH its guard
     for c in selected_idx_: if norm(X_current_[:, c]) > tolerance * norm(X[:, c]): orthogonalize(c)
   ([warm_fold_mx]; guard_mx is the comparison).  s1 = the items already projected out of
   X_current_ (selected while recompute_every != 0, pivots normalised); s2 = the items selected
   afterwards while recompute_every was 0: they are still in the residual, and each of them, at its
   turn, exceeds the relative tolerance ([stale_live]).  Then the loop over selected_idx_ =
   s1 ++ s2 leaves the s1 part alone and projects the s2 items out ONE AFTER THE OTHER, each from
   the residual left by the previous one: the result is X_orthogonalizer folded over ALL selections
   in selection order, i.e. (C07_residual_is_projection) the projection residual.  s1 = [] is
   `fit with recompute_every = 0, set_params(recompute_every != 0), warm start`. *)
Theorem C07_warm_catches_up :
  forall (F : rcfType) (r c : nat) (X : 'M[F]_(r, c)) (tol : F),
    0 < tol -> forall s1 s2 : seq 'I_c, pivots_ok tol X s1 ->
    stale_live tol X (orth_fold_mx tol X s1) s2 ->
    warm_fold_mx tol X (orth_fold_mx tol X s1) (s1 ++ s2) = orth_fold_mx tol X (s1 ++ s2).
Proof. exact warm_catches_up. Qed.
Print Assumptions C07_warm_catches_up.

(* the residual left by that warm start is the projection residual for ALL selections *)
Theorem C07_warm_catches_up_projection :
  forall (F : rcfType) (r c : nat) (X : 'M[F]_(r, c)) (tol : F),
    0 < tol -> forall s1 s2 : seq 'I_c, pivots_ok tol X (s1 ++ s2) ->
    stale_live tol X (orth_fold_mx tol X s1) s2 ->
    let Xc := warm_fold_mx tol X (orth_fold_mx tol X s1) (s1 ++ s2) in
    [/\ forall j, j \in s1 ++ s2 -> Xc^T *m col j X = 0,
        exists B : 'M[F]_c, X - Xc = X *m B /\ forall i, i \notin s1 ++ s2 -> row i B = 0
      & forall j, j \in s1 ++ s2 -> col j Xc = 0].
Proof. exact warm_catches_up_projection. Qed.
Print Assumptions C07_warm_catches_up_projection.

(* a warm start on an up-to-date residual changes nothing *)
Theorem C07_warm_idempotent :
  forall (F : rcfType) (r c : nat) (X : 'M[F]_(r, c)) (tol : F),
    0 < tol -> forall s : seq 'I_c, pivots_ok tol X s ->
    warm_fold_mx tol X (orth_fold_mx tol X s) s = orth_fold_mx tol X s.
Proof.
  move=> F r c X tol tpos s Hp; have := @warm_catches_up _ _ _ X tol tpos s [::] Hp I.
  by rewrite cats0.
Qed.
Print Assumptions C07_warm_idempotent.

(* Y_feature_orthogonalizer over ANY sequence of calls of a history: call number i uses the
   X_selected_ buffer at fill level t_i and width K_i >= t_i with t_1 <= t_2 <= ... (equal levels:
   one call per re-orthogonalised item at a warm start; jumps: selections made while
   recompute_every = 0 triggered no call) and ANY symmetric generalised inverse.  The running y is
   THE least-squares residual of y on the first T = t_last selected columns.  C07_y_feature is the
   special case t_i = i. *)
Theorem C07_y_feature_events :
  forall (F : rcfType) (n m p : nat) (X : 'M[F]_(n, m)) (sel : seq nat) (y : 'M[F]_(n, p))
         (evs : seq (nat * hintV F)),
    events_ok X sel y 0 evs -> evs != [::] ->
    let T := last 0%N (map fst evs) in
    let Xs := buf_mx X sel T T in
    let z := yfeat_events_mx X sel evs y in
    (Xs^T *m z = 0 /\ exists b : 'M[F]_(T, p), y - z = Xs *m b) /\
    forall V' : 'M[F]_T,
      Xs^T *m Xs *m V' *m (Xs^T *m Xs) = Xs^T *m Xs -> V'^T = V' ->
      z = y - Xs *m V' *m Xs^T *m y.
Proof. exact y_feature_events. Qed.
Print Assumptions C07_y_feature_events.

Example C07_nonvacuous_warm :
  forall F : rcfType,
    [/\ 0 < (2%:R^-1 : F), pivots_ok 2%:R^-1 (exX F) [::]
      & stale_live 2%:R^-1 (exX F) (orth_fold_mx 2%:R^-1 (exX F) [::]) [:: ord0]] /\
    warm_fold_mx 2%:R^-1 (exX F) (orth_fold_mx 2%:R^-1 (exX F) [::]) ([::] ++ [:: ord0]) != exX F.
Proof. exact (fun F => conj (ex_warm F) (ex_warm_moves F)). Qed.

Example C07_nonvacuous_events :
  forall (F : rcfType) (y0 : 'M[F]_(1, 1)),
    let ev : nat * hintV F := (1%N, existT _ 1%N (1%:M : 'M[F]_1)) in
    events_ok (1%:M : 'M[F]_1) [:: 0%N] y0 0 [:: ev; ev] /\ [:: ev; ev] != [::].
Proof. exact ex_events. Qed.
