(* C08 — greedy selection is history independent (prefix, restart, warm start).
   The loop theorems are generic in the scorer (any state type, score function and update
   with an invariant [P] that keeps one score per candidate); they are then instantiated for
   plain FPS (exact distance-table model), Voronoi FPS (cell bookkeeping included)
   and oracle-stream scorers (CUR family: conditional on the restart presenting the same
   scores, which the correspondence run checks on the implementation). Equality below is
   equality of the WHOLE selector state: selections, stored rows/columns and targets,
   distance tables, distances at selection; where a theorem concludes [same4] it is equality
   up to first_score_, and the CUR theorems conclude [g_equiv] (scores compared off the
   selected items). *)
From Verif Require Import ListX Greedy FPS Voronoi Select GreedyP FPSP FPSInst
  SelectP HistoryP C02Thm C01Thm C08Thm SelSession SelSessionP CURWarm CURWarmP.

(* requesting a+b selections = requesting a, then continuing with b more (any scorer) *)
Theorem C08_run_add :
  forall S score upd cand ycand a b g,
    fst (run S score upd cand ycand NoThr (a + b) g)
    = fst (run S score upd cand ycand NoThr b (fst (run S score upd cand ycand NoThr a g))).
Proof. exact run_add. Qed.
Print Assumptions C08_run_add.

(* the first selections do not depend on how many more are requested *)
Theorem C08_prefix :
  forall S score upd cand ycand (P : S -> Prop),
    (forall s, P s -> length (score s) = length cand) ->
    (forall s i, P s -> (i < length cand)%nat -> P (upd s i)) ->
    forall a b g, GInv S cand ycand P g ->
    exists new, sel (fst (run S score upd cand ycand NoThr (a + b) g))
                = sel (fst (run S score upd cand ycand NoThr a g)) ++ new.
Proof. exact prefix_independent. Qed.
Print Assumptions C08_prefix.

(* EVERY non-decreasing schedule of warm-started fits n1 <= ... <= nr ends in exactly the state
   of the single fit with nr (induction over the schedule; no bound on its length) *)
Theorem C08_chain_equals_cold :
  forall S score upd cand ycand (P : S -> Prop),
    (forall s, P s -> length (score s) = length cand) ->
    (forall s i, P s -> (i < length cand)%nat -> P (upd s i)) ->
    forall g sched nr, GInv S cand ycand P g ->
    nondecreasing_from (length (sel g)) (sched ++ [nr]) -> (nr <= length cand)%nat ->
    chain S score upd cand ycand g (sched ++ [nr])
    = fst (run S score upd cand ycand NoThr (nr - length (sel g)) g).
Proof. exact chain_equals_cold. Qed.
Print Assumptions C08_chain_equals_cold.

(* thresholds that are set but never reached do not change the outcome *)
Theorem C08_threshold_unreached :
  forall S score upd cand ycand t k g h g',
    same4 S g h -> run S score upd cand ycand t k g = (g', false) ->
    same4 S g' (fst (run S score upd cand ycand NoThr k h)).
Proof. exact thr_unreached. Qed.
Print Assumptions C08_threshold_unreached.

Theorem C08_fps_chain :
  forall cs d ycand, dims d cs -> forall g sched nr,
    GInv dst cs ycand (FP cs) g -> nondecreasing_from (length (sel g)) (sched ++ [nr]) ->
    (nr <= length cs)%nat ->
    fps_chain cs ycand g (sched ++ [nr]) = fst (fps_run cs ycand NoThr nr g).
Proof.
  intros cs d ycand Hd.
  exact (chain_equals_cold dst dscore _ cs ycand (FP cs) (FP_len cs) (FP_upd cs _ _ _ (fps_newdist cs d Hd))).
Qed.
Print Assumptions C08_fps_chain.

Theorem C08_voronoi_chain :
  forall cs d ycand, dims d cs -> forall br g sched nr,
    GInv vst cs ycand (VP cs) g -> nondecreasing_from (length (sel g)) (sched ++ [nr]) ->
    (nr <= length cs)%nat ->
    vor_chain cs ycand br g (sched ++ [nr]) = fst (vor_run cs br ycand NoThr nr g).
Proof.
  intros cs d ycand Hd br.
  exact (chain_equals_cold vst vscore (vupd cs br) cs ycand (VP cs) (VP_len cs) (VP_upd cs d Hd br)).
Qed.
Print Assumptions C08_voronoi_chain.

Theorem C08_stream_chain :
  forall cand ycand g sched nr,
    GInv stream cand ycand (SP cand) g ->
    nondecreasing_from (length (sel g)) (sched ++ [nr]) -> (nr <= length cand)%nat ->
    s_chain cand ycand g (sched ++ [nr])
    = fst (s_run cand ycand NoThr (nr - length (sel g)) g).
Proof.
  intros cand ycand.
  exact (chain_equals_cold stream (s_score (length cand)) s_upd cand ycand (SP cand) (SP_len cand) (SP_upd cand)).
Qed.
Print Assumptions C08_stream_chain.

(* FPS initialised with the prefix it selected itself is in exactly the state the cold fit
   had at that point, hence continues identically *)
Theorem C08_fps_init_prefix :
  forall cs ycand i0 k,
    let g := fst (fps_fit cs ycand [i0] NoThr k) in fps_init cs ycand (sel g) = g.
Proof. exact fps_init_prefix. Qed.
Print Assumptions C08_fps_init_prefix.

Theorem C08_fps_init_prefix_continues :
  forall cs ycand i0 k m,
    let g := fst (fps_fit cs ycand [i0] NoThr k) in
    fst (fps_fit cs ycand (sel g) NoThr m) = fst (fps_run cs ycand NoThr m g).
Proof.
  intros cs ycand i0 k m g. unfold fps_fit at 1. f_equal. f_equal. exact (fps_init_prefix cs ycand i0 k).
Qed.
Print Assumptions C08_fps_init_prefix_continues.

(* warm_start on a never-fitted selector (or one without selections) is rejected *)
Theorem C08_warm_unfitted_rejected :
  forall cand ycand prev c inits str,
    c_warm c = true -> (prev = None \/ exists g0, prev = Some g0 /\ sel g0 = []) ->
    sfit cand ycand prev c inits str = Rejected.
Proof.
  exact (fun cand ycand prev c inits str Hw Hp =>
           c01_rejections cand ycand prev c inits str (or_intror (or_intror (conj Hw Hp)))).
Qed.
Print Assumptions C08_warm_unfitted_rejected.

Example C08_nonvacuous :
  let cs := [[0;0];[3;0];[0;4];[1;1];[5;5]] in
  fps_chain cs None (fps_init cs None [0%nat]) [2; 3; 5]%nat
  = fst (fps_run cs None NoThr 5 (fps_init cs None [0%nat])) /\
  sel (fst (fps_run cs None NoThr 5 (fps_init cs None [0%nat]))) = [0; 4; 2; 1; 3]%nat.
Proof. vm_compute. split; reflexivity. Qed.

(* Sessions of calls on one object (Model/SelSession.v); further down the CUR family as an object
   with its residual matrix and warm-start path (Model/CURWarm.v, linear algebra abstract). *)

(* calls of fit that are rejected leave no trace: deleting them from a session does not change
   the state it ends in (so a chain of warm starts interleaved with failed calls is a chain) *)
Theorem C08_session_rejected_calls_leave_no_trace :
  forall cand ycand evs o,
    sess_run cand ycand o (sess_kept cand ycand o evs) = sess_run cand ycand o evs.
Proof. exact sess_drop_rejected. Qed.
Print Assumptions C08_session_rejected_calls_leave_no_trace.

(* warm_start is rejected after ANY history in which no call of fit has returned with a
   selection: a new object, calls rejected by validation, cold fits that raised while making
   their initial selections, set_params in between -- sessions of any length *)
Theorem C08_session_never_fitted_rejected :
  forall cand ycand evs c r str,
    never_returned cand ycand None evs = true -> Select.c_warm c = true ->
    sess_fit cand ycand (sess_run cand ycand None evs) c r str
    = (sess_run cand ycand None evs, RPre).
Proof.
  intros cand ycand evs c r str Hn Hw. apply sess_unfitted_warm_rejected; [|exact Hw].
  apply sess_never_returned_unfitted; [now left|exact Hn].
Qed.
Print Assumptions C08_session_never_fitted_rejected.

(* warm_start is rejected in particular directly after a cold fit that raised inside
   _init_greedy_search, also on an object that had been fitted before *)
Theorem C08_session_failed_init_then_warm_rejected :
  forall cand ycand o c r str c' r' str',
    snd (sess_fit cand ycand o c r str) = RInit -> Select.c_warm c' = true ->
    snd (sess_fit cand ycand (fst (sess_fit cand ycand o c r str)) c' r' str') = RPre.
Proof. exact sess_failed_init_then_warm. Qed.
Print Assumptions C08_session_failed_init_then_warm_rejected.

(* a warm start whose request resolves to FEWER items than are already selected is rejected and
   leaves the object as it was *)
Theorem C08_session_shrinking_warm_rejected :
  forall cand ycand g c r str k,
    c_full c && has_thr (c_thr c) = false -> resolve_n (length cand) (c_nts c) = Some k ->
    Select.c_warm c = true -> (k < length (sel g))%nat ->
    sess_fit cand ycand (Some g) c r str = (Some g, RPre).
Proof.
  intros cand ycand g c r str k Hf Hr Hw Hk. unfold sess_fit. rewrite Hf, Hr, Hw.
  apply Nat.ltb_lt in Hk. now rewrite Hk.
Qed.
Print Assumptions C08_session_shrinking_warm_rejected.

(* a cold fit does not see the history of the object (what it returns, and the state it leaves
   unless it is rejected before touching the object) *)
Theorem C08_session_cold_fit_history_free :
  forall cand ycand o c r str,
    Select.c_warm c = false ->
    snd (sess_fit cand ycand o c r str) = snd (sess_fit cand ycand None c r str) /\
    (snd (sess_fit cand ycand o c r str) <> RPre ->
     fst (sess_fit cand ycand o c r str) = fst (sess_fit cand ycand None c r str)).
Proof. exact sess_cold_history_free. Qed.
Print Assumptions C08_session_cold_fit_history_free.

(* CUR family, recompute_every in {0,1}: cold fit with k0, then EVERY non-decreasing schedule of
   warm-started fits -- each running the guarded re-orthogonalisation loop over the selected
   items and recomputing the scores -- ends equivalent to the single cold fit with the last
   value: same selections, stored data, first_score_, residual matrix, counters, and the same
   score on every item that can still be selected ([g_equiv]). *)
Theorem C08_cur_fits_equal_cold :
  forall (M : Type) (orth : M -> list nat -> nat -> M) (pi_of : M -> list Z)
         (stale : M -> nat -> bool) cand ycand,
    (forall x, length (pi_of x) = length cand) ->
    (forall x l i, stale (orth x l i) i = false) ->
    (forall x l i c, stale x c = false -> stale (orth x l i) c = false) ->
    forall re X k0 sched nr,
      (re <= 1)%nat -> nondecreasing_from k0 (sched ++ [nr]) -> (nr <= length cand)%nat ->
      g_equiv M
        (cu_chain M orth pi_of stale cand ycand re
           (fst (cu_run M orth pi_of cand ycand re NoThr k0 (cu_g0 M pi_of X))) (sched ++ [nr]))
        (fst (cu_run M orth pi_of cand ycand re NoThr nr (cu_g0 M pi_of X))).
Proof. exact cur_fits_equal_cold. Qed.
Print Assumptions C08_cur_fits_equal_cold.

(* the same from any reachable pair of equivalent objects (the invariant [J]: the scores held
   are those of the residual off the selected items; no selected item is stale) *)
Theorem C08_cur_chain_equals_cold :
  forall (M : Type) (orth : M -> list nat -> nat -> M) (pi_of : M -> list Z)
         (stale : M -> nat -> bool) cand ycand,
    (forall x, length (pi_of x) = length cand) ->
    (forall x l i, stale (orth x l i) i = false) ->
    (forall x l i c, stale x c = false -> stale (orth x l i) c = false) ->
    forall re, (re <= 1)%nat ->
    forall sched g h nr,
      g_equiv M g h -> GInv (cur M) cand ycand (CP M cand) h ->
      J M pi_of stale cand re (sst h) (sel h) ->
      nondecreasing_from (length (sel h)) (sched ++ [nr]) -> (nr <= length cand)%nat ->
      g_equiv M (cu_chain M orth pi_of stale cand ycand re g (sched ++ [nr]))
                (fst (cu_run M orth pi_of cand ycand re NoThr (nr - length (sel h)) h)).
Proof. exact cur_chain_equals_cold. Qed.
Print Assumptions C08_cur_chain_equals_cold.

(* equivalent objects make the same further selections, for every recompute_every and threshold *)
Theorem C08_cur_equivalent_objects_continue_alike :
  forall (M : Type) (orth : M -> list nat -> nat -> M) (pi_of : M -> list Z) cand ycand
         re t k g1 g2,
    g_equiv M g1 g2 ->
    g_equiv M (fst (cu_run M orth pi_of cand ycand re t k g1))
              (fst (cu_run M orth pi_of cand ycand re t k g2)) /\
    snd (cu_run M orth pi_of cand ycand re t k g1) = snd (cu_run M orth pi_of cand ycand re t k g2).
Proof. exact run_equiv. Qed.
Print Assumptions C08_cur_equivalent_objects_continue_alike.

(* set_params(recompute_every=1) after a fit with recompute_every=0, then a warm start: the
   selector continues exactly as a recompute_every=1 selector that had made the same selections
   (the CUR analogue of initialising FPS with the selected prefix).  [orth] must not read the
   result buffers (true of _CUR; _PCovCUR reads X_selected_/y_selected_ for y_current_). *)
Theorem C08_cur_switch_recompute_every :
  forall (M : Type) (orth : M -> list nat -> nat -> M) (pi_of : M -> list Z)
         (stale : M -> nat -> bool) cand ycand,
    (forall x, length (pi_of x) = length cand) ->
    (forall x l l' c, orth x l c = orth x l' c) ->
    (forall x l c, stale x c = false -> orth x l c = x) ->
    forall X k0 k,
      let g0 := fst (cu_run M orth pi_of cand ycand 0 NoThr k0 (cu_g0 M pi_of X)) in
      g_equiv M (cu_warm_fit M orth pi_of stale cand ycand 1 k g0)
                (fst (cu_run M orth pi_of cand ycand 1 NoThr (k - length (sel g0))
                             (cu_forced M orth pi_of cand ycand 1 X (sel g0)))).
Proof. exact switch_fit. Qed.
Print Assumptions C08_cur_switch_recompute_every.

(* non-vacuity.  Sessions: warm start on a new object; a cold fit whose initialisation list is
   longer than n_to_select; the warm start after it; the cold fit after that equals a fresh one. *)
Example C08_session_nonvacuous :
  let cs := [[0;0];[3;0];[0;4];[1;1];[5;5]] in
  let warm k := mk_cfg (NtsInt k) NoThr false true in
  let cold k := mk_cfg (NtsInt k) NoThr false false in
  let str := [[0;9;16;2;50];[0;0;16;2;25]] in
  let evs := [EFit (warm 3) (InitIdx [0]) str; ESet; EFit (cold 2) (InitIdx [0;1;2]) str; EPre;
              EFit (warm 4) (InitIdx [0]) str] in
  never_returned cs None None evs = true /\
  sess_run cs None None evs = Some g_reset /\
  (exists g, sess_fit cs None (sess_run cs None None evs) (cold 3) (InitIdx [0]) str
             = (Some g, ROk g false) /\ sel g = [0; 4; 2]%nat).
Proof. vm_compute. split; [reflexivity|]. split; [reflexivity|]. eexists. split; reflexivity. Qed.

(* CUR object: the toy instance of the laws (Proofs/CURWarmP.v); a chain with recompute_every=1
   and the switch 0 -> 1 evaluated *)
Example C08_cur_nonvacuous :
  let cs := [[1];[2];[3];[4];[5]] in
  let X := [3; 9; 4; 7; 5] in
  let fit re k := fst (cu_run (list Z) toy_orth (fun x => x) cs None re NoThr k (cu_g0 (list Z) (fun x => x) X)) in
  sel (cu_chain (list Z) toy_orth (fun x => x) toy_stale cs None 1 (fit 1%nat 1%nat) [2; 4]%nat) = [1; 3; 4; 2]%nat /\
  sel (fit 1%nat 4%nat) = [1; 3; 4; 2]%nat /\
  sel (cu_warm_fit (list Z) toy_orth (fun x => x) toy_stale cs None 1 4 (fit 0%nat 2%nat)) = [1; 3; 4; 2]%nat /\
  xc (sst (cu_warm_fit (list Z) toy_orth (fun x => x) toy_stale cs None 1 4 (fit 0%nat 2%nat))) = [3; 0; 0; 0; 0].
Proof. vm_compute. repeat split. Qed.
