(* Proofs about Model/Pairwise.v (periodic and Mahalanobis pairwise distances over Q).
   Stdlib style; arithmetic by lra/nra over Q (Lqa), no axioms. *)
From Coq Require Import Lqa.
From Verif Require Import Pairwise ListXP.
Open Scope Q_scope.

Lemma inject_Z_minus a b : inject_Z (a - b) == inject_Z a - inject_Z b.
Proof. unfold Z.sub. rewrite inject_Z_plus, inject_Z_opp. reflexivity. Qed.

Definition near (q : Q) (z : Z) : Prop := - (1#2) <= q - inject_Z z <= 1#2.
Definition tie (q : Q) (z : Z) : Prop := q - inject_Z z == 1#2 \/ q - inject_Z z == - (1#2).

Lemma rhe_spec q : near q (rhe q) /\ (tie q (rhe q) -> Z.even (rhe q) = true).
Proof.
  unfold near, tie, rhe.
  pose proof (Qfloor_le (q + (1#2))) as Hl. pose proof (Qlt_floor (q + (1#2))) as Hu.
  remember (Qfloor (q + (1#2))) as f eqn:Ef.
  rewrite inject_Z_plus in Hu. change (inject_Z 1) with 1 in Hu.
  destruct (Qeq_bool (inject_Z f) (q + (1#2)) && Z.odd f) eqn:E.
  - apply andb_prop in E. destruct E as [E1 E2]. apply Qeq_bool_eq in E1.
    rewrite inject_Z_minus. change (inject_Z 1) with 1. split; [lra|].
    intros _. rewrite Z.even_sub, <- Z.negb_odd, E2. reflexivity.
  - split; [lra|]. intros [H|H]; [exfalso; lra|].
    assert (E1 : Qeq_bool (inject_Z f) (q + (1#2)) = true) by (apply Qeq_eq_bool; lra).
    rewrite E1 in E. cbn in E. rewrite <- Z.negb_odd, E. reflexivity.
Qed.

Lemma rhe_near q : near q (rhe q).
Proof. apply rhe_spec. Qed.
Lemma rhe_tie_even q : tie q (rhe q) -> Z.even (rhe q) = true.
Proof. apply rhe_spec. Qed.

Lemma near_diff q z1 z2 : near q z1 -> near q z2 -> (z1 = z2 \/ z1 = z2 + 1 \/ z2 = z1 + 1)%Z.
Proof.
  unfold near. intros H1 H2.
  assert (A : inject_Z z1 < inject_Z (z2 + 2)) by (rewrite inject_Z_plus; change (inject_Z 2) with 2; lra).
  assert (B : inject_Z z2 < inject_Z (z1 + 2)) by (rewrite inject_Z_plus; change (inject_Z 2) with 2; lra).
  rewrite <- Zlt_Qlt in A, B. lia.
Qed.

Lemma near_min q z z' : near q z -> qsq (q - inject_Z z) <= qsq (q - inject_Z z').
Proof.
  unfold near, qsq. intros H.
  assert (A : z' = z \/ inject_Z z' + 1 <= inject_Z z \/ inject_Z z + 1 <= inject_Z z').
  { change 1 with (inject_Z 1). rewrite <- !inject_Z_plus, <- !Zle_Qle. lia. }
  destruct A as [-> | [A | A]]; [lra | nra | nra].
Qed.

(* so two near integers leave the same squared residue: at a tie the two candidates differ in
   sign only, which is why the Euclidean distance needs no parity argument *)
Lemma near_sq_eq q z1 z2 : near q z1 -> near q z2 ->
  qsq (q - inject_Z z1) == qsq (q - inject_Z z2).
Proof. intros H1 H2. apply Qle_antisym; now apply near_min. Qed.

Lemma near_succ_tie q z : near q z -> near q (z + 1) -> tie q z /\ tie q (z + 1).
Proof.
  unfold near, tie. rewrite inject_Z_plus. change (inject_Z 1) with 1.
  intros H1 H2. split; [left | right]; lra.
Qed.

Lemma rhe_unique q z : near q z -> (tie q z -> Z.even z = true) -> z = rhe q.
Proof.
  intros Hn Ht. pose proof (rhe_near q) as Rn. pose proof (rhe_tie_even q) as Rt.
  assert (P : forall n, Z.even n = true -> Z.even (n + 1) = true -> False)
    by (intros n E; rewrite Z.even_add, E; discriminate).
  destruct (near_diff q z (rhe q) Hn Rn) as [E|[E|E]]; [exact E| |]; exfalso; rewrite E in *.
  - destruct (near_succ_tie q (rhe q) Rn Hn) as [T1 T2]. exact (P _ (Rt T1) (Ht T2)).
  - destruct (near_succ_tie q z Hn Rn) as [T1 T2]. exact (P _ (Ht T1) (Rt T2)).
Qed.

Lemma rhe_comp q q' : q == q' -> rhe q = rhe q'.
Proof.
  intros E. apply rhe_unique.
  - pose proof (rhe_near q) as H. unfold near in *. lra.
  - intros T. apply rhe_tie_even. unfold tie in *. lra.
Qed.

Lemma rhe_opp q : rhe (- q) = (- rhe q)%Z.
Proof.
  symmetry. apply rhe_unique.
  - pose proof (rhe_near q) as H. unfold near in *. rewrite inject_Z_opp. lra.
  - intros T. rewrite Z.even_opp. apply rhe_tie_even. unfold tie in *. rewrite inject_Z_opp in T. lra.
Qed.

Lemma rhe_shift_near q m : near q (rhe (q + inject_Z m) - m).
Proof.
  pose proof (rhe_near (q + inject_Z m)) as H. unfold near in *. rewrite inject_Z_minus. lra.
Qed.

Global Instance qsq_comp : Proper (Qeq ==> Qeq) qsq.
Proof. intros a b E. unfold qsq. rewrite E. reflexivity. Qed.

Lemma wrap_as_resid c x : 0 < c -> wrap c x == c * (x / c - inject_Z (rhe (x / c))).
Proof. intros Hc. unfold wrap. field. lra. Qed.

Lemma wrap_comp c x x' : x == x' -> wrap c x == wrap c x'.
Proof.
  intros E. unfold wrap. rewrite (rhe_comp (x / c) (x' / c)) by (rewrite E; reflexivity).
  rewrite E. reflexivity.
Qed.

Lemma wrap_bound c x : 0 < c -> - c <= 2 * wrap c x <= c.
Proof.
  intros Hc. rewrite (wrap_as_resid c x Hc).
  pose proof (rhe_near (x / c)) as H. unfold near in H.
  set (r := x / c - inject_Z (rhe (x / c))) in *. nra.
Qed.

(* x - z c = c (x/c - z): residues modulo c are c times residues of x/c modulo 1 *)
Lemma resid_sq c x z : 0 < c -> qsq (x - inject_Z z * c) == qsq c * qsq (x / c - inject_Z z).
Proof. intros Hc. unfold qsq. field. lra. Qed.

Lemma wrap_sq_min c x z : 0 < c -> qsq (wrap c x) <= qsq (x - inject_Z z * c).
Proof.
  intros Hc. unfold wrap. rewrite !(resid_sq c x _ Hc).
  pose proof (near_min (x / c) (rhe (x / c)) z (rhe_near _)) as H.
  apply Qmult_le_l with (z := qsq c) in H; [exact H | unfold qsq; nra].
Qed.

Lemma wrap_sq_le_free c x : 0 < c -> qsq (wrap c x) <= qsq x.
Proof.
  intros Hc. pose proof (wrap_sq_min c x 0 Hc) as H.
  assert (E : x - inject_Z 0 * c == x) by (change (inject_Z 0) with 0; ring).
  unfold qsq in *. rewrite E in H. exact H.
Qed.

Lemma wrap_sq_image c x m : 0 < c -> qsq (wrap c (x + inject_Z m * c)) == qsq (wrap c x).
Proof.
  intros Hc. unfold wrap.
  assert (E : (x + inject_Z m * c) / c == x / c + inject_Z m) by (field; lra).
  rewrite (rhe_comp _ _ E). set (z := rhe (x / c + inject_Z m)).
  assert (E2 : x + inject_Z m * c - inject_Z z * c == x - inject_Z (z - m) * c)
    by (rewrite inject_Z_minus; ring).
  rewrite E2, !(resid_sq c x _ Hc).
  rewrite (near_sq_eq (x / c) (z - m) (rhe (x / c)) (rhe_shift_near _ m) (rhe_near _)). reflexivity.
Qed.

Lemma wrap_opp c x : wrap c (- x) == - wrap c x.
Proof.
  unfold wrap. assert (E : - x / c == - (x / c)) by (unfold Qdiv; ring).
  rewrite (rhe_comp _ _ E), rhe_opp, inject_Z_opp. ring.
Qed.

Lemma wrap_image_zero c m : 0 < c -> wrap c (inject_Z m * c) == 0.
Proof.
  intros Hc. unfold wrap.
  assert (E : inject_Z m * c / c == inject_Z m) by (field; lra).
  assert (R : rhe (inject_Z m) = m).
  { symmetry. apply rhe_unique; unfold near, tie.
    - lra.
    - intros [T|T]; exfalso; lra. }
  rewrite (rhe_comp _ _ E), R. ring.
Qed.

Lemma wrap_sq_tri c s t : 0 < c -> qsq (wrap c (s + t)) <= qsq (wrap c s + wrap c t).
Proof.
  intros Hc. pose proof (wrap_sq_min c (s + t) (rhe (s / c) + rhe (t / c)) Hc) as H.
  assert (E : s + t - inject_Z (rhe (s / c) + rhe (t / c)) * c == wrap c s + wrap c t)
    by (unfold wrap; rewrite inject_Z_plus; ring).
  unfold qsq in *. rewrite E in H. exact H.
Qed.

Lemma qdot_cons a u b v : qdot (a :: u) (b :: v) = a * b + qdot u v.
Proof. reflexivity. Qed.
Lemma qsqn_cons a v : qsqn (a :: v) = qsq a + qsqn v.
Proof. reflexivity. Qed.
Lemma qdot_nil_l v : qdot [] v = 0.
Proof. reflexivity. Qed.
Lemma qdot_nil_r u : qdot u [] = 0.
Proof. destruct u; reflexivity. Qed.

Lemma qsqn_nonneg v : 0 <= qsqn v.
Proof.
  induction v as [|a v IH]; [apply Qle_refl|]. rewrite qsqn_cons. unfold qsq. nra.
Qed.

Lemma qdot_self v : qdot v v = qsqn v.
Proof. unfold qdot, qsqn. rewrite map2_same. reflexivity. Qed.

(* Everything below about pd2 is a one-coordinate fact about wrap, summed over the coordinates:
   induction over a positive cell and two points of its dimension. *)
Lemma cell_ind (P : list Q -> list Q -> list Q -> Prop) :
  P [] [] [] ->
  (forall c a b cell x y, 0 < c -> cell_pos cell -> length x = length cell -> length y = length cell ->
                          P cell x y -> P (c :: cell) (a :: x) (b :: y)) ->
  forall cell x y, cell_pos cell -> length x = length cell -> length y = length cell -> P cell x y.
Proof.
  intros H0 HS cell x y Hc. revert x y.
  induction Hc as [|c cell Hc0 Hc1 IH]; intros [|a x] [|b y] Hx Hy; try discriminate; [exact H0|].
  injection Hx as Hx. injection Hy as Hy. apply HS; auto.
Qed.

Lemma wvec_cons c cell a x b y : wvec (c :: cell) (a :: x) (b :: y) = wrap c (a - b) :: wvec cell x y.
Proof. reflexivity. Qed.
Lemma pd2_cons c cell a x b y :
  pd2 (c :: cell) (a :: x) (b :: y) = qsq (wrap c (a - b)) + pd2 cell x y.
Proof. reflexivity. Qed.
Lemma fd2_cons a x b y : fd2 (a :: x) (b :: y) = qsq (a - b) + fd2 x y.
Proof. reflexivity. Qed.

Lemma pd2_nonneg cell x y : 0 <= pd2 cell x y.
Proof. apply qsqn_nonneg. Qed.

Lemma pd2_sym cell x y : pd2 cell x y == pd2 cell y x.
Proof.
  revert x y. induction cell as [|c cell IH]; intros [|a x] [|b y]; try reflexivity.
  rewrite !pd2_cons, IH.
  assert (E : b - a == - (a - b)) by ring.
  rewrite (wrap_comp c _ _ E), wrap_opp. unfold qsq. ring.
Qed.

Lemma wvec_length cell x y :
  length x = length cell -> length y = length cell -> length (wvec cell x y) = length cell.
Proof.
  intros Hx Hy. unfold wvec, vdiff. rewrite !map2_length, Hx, Hy, !Nat.min_id. reflexivity.
Qed.

Lemma vshift_length cell m x :
  length m = length cell -> length x = length cell -> length (vshift cell m x) = length cell.
Proof.
  revert m x. induction cell as [|c cell IH]; intros [|k m] [|a x] Hm Hx; try discriminate; try reflexivity.
  cbn. f_equal. apply IH; cbn in *; congruence.
Qed.

Lemma wvec_half_diagonal cell v : cell_pos cell -> 4 * qsqn (map2 wrap cell v) <= qsqn cell.
Proof.
  intros Hc. revert v. induction Hc as [|c cell Hc0 _ IH]; intros v; [apply Qle_refl|].
  pose proof (qsqn_nonneg (c :: cell)) as N.
  destruct v as [|t v]; [change (4 * 0 <= qsqn (c :: cell)); lra|].
  cbn [map2]. rewrite !qsqn_cons.
  specialize (IH v). pose proof (wrap_bound c t Hc0) as H. unfold qsq in *. nra.
Qed.

Lemma pd2_half_diagonal cell x y : cell_pos cell -> 4 * pd2 cell x y <= qsqn cell.
Proof. apply wvec_half_diagonal. Qed.

Lemma pd2_le_free cell x y : cell_pos cell ->
  length x = length cell -> length y = length cell -> pd2 cell x y <= fd2 x y.
Proof.
  apply (cell_ind (fun cell x y => pd2 cell x y <= fd2 x y)); [apply Qle_refl|].
  intros c a b cell' x' y' Hc _ _ _ IH. rewrite pd2_cons, fd2_cons.
  pose proof (wrap_sq_le_free c (a - b) Hc). lra.
Qed.

Lemma pd2_self cell x : cell_pos cell -> pd2 cell x x == 0.
Proof.
  revert x. induction cell as [|c cell IH]; intros [|a x] Hc; try reflexivity.
  inversion Hc as [|c' l Hc0 Hc1]; subst. rewrite pd2_cons, IH by exact Hc1.
  assert (E : a - a == inject_Z 0 * c) by (change (inject_Z 0) with 0; ring).
  rewrite (wrap_comp c _ _ E), wrap_image_zero by exact Hc0. unfold qsq. ring.
Qed.

(* moving one point by integer multiples of the cell changes nothing, also for pairs exactly half
   a cell apart (wrap_sq_image); moving both points, or the second one, follows by symmetry *)
Lemma pd2_image_l cell x y : cell_pos cell -> length x = length cell -> length y = length cell ->
  forall m, length m = length cell -> pd2 cell (vshift cell m x) y == pd2 cell x y.
Proof.
  apply (cell_ind (fun cell x y => forall m, length m = length cell ->
                                   pd2 cell (vshift cell m x) y == pd2 cell x y)).
  - intros [|k m] _; reflexivity.
  - intros c a b cell' x' y' Hc _ _ _ IH [|k m] Hm; [discriminate|].
    cbn [vshift]. rewrite !pd2_cons, IH by (now injection Hm).
    assert (E : a + inject_Z k * c - b == (a - b) + inject_Z k * c) by ring.
    rewrite (wrap_comp c _ _ E), wrap_sq_image by exact Hc. reflexivity.
Qed.

Lemma pd2_image cell m m' x y : cell_pos cell ->
  length m = length cell -> length m' = length cell ->
  length x = length cell -> length y = length cell ->
  pd2 cell (vshift cell m x) (vshift cell m' y) == pd2 cell x y.
Proof.
  intros Hc Hm Hm' Hx Hy.
  rewrite pd2_image_l, pd2_sym, pd2_image_l, pd2_sym; auto using vshift_length. reflexivity.
Qed.

(* the wrapped difference is the difference to a periodic image of x: the minimum-image vector *)
Lemma pd2_attained cell x y : cell_pos cell ->
  length x = length cell -> length y = length cell ->
  exists m, length m = length cell /\ pd2 cell x y == fd2 (vshift cell m x) y.
Proof.
  apply (cell_ind (fun cell x y => exists m, length m = length cell /\ pd2 cell x y == fd2 (vshift cell m x) y)).
  - exists []. split; reflexivity.
  - intros c a b cell' x' y' _ _ _ _ [m [Lm Em]].
    exists ((- rhe ((a - b) / c))%Z :: m). split; [cbn; congruence|].
    cbn [vshift]. rewrite pd2_cons, fd2_cons, Em.
    assert (E : a + inject_Z (- rhe ((a - b) / c)) * c - b == wrap c (a - b))
      by (unfold wrap; rewrite inject_Z_opp; ring).
    rewrite E. reflexivity.
Qed.

Lemma fd2_zero u : forall v, length u = length v -> fd2 u v == 0 -> Forall2 Qeq v u.
Proof.
  induction u as [|a u IH]; intros [|b v] L H; try discriminate; [constructor|].
  rewrite fd2_cons in H. pose proof (qsqn_nonneg (vdiff u v)) as N. unfold fd2, qsq in *.
  set (t := a - b) in *. assert (Z : t * t == 0) by nra.
  constructor; [assert (t == 0) by nra; unfold t in *; lra|].
  apply IH; [now injection L|unfold fd2; lra].
Qed.

(* the image that attains distance zero is y itself *)
Lemma pd2_zero_only_images cell x y : cell_pos cell ->
  length x = length cell -> length y = length cell -> pd2 cell x y == 0 ->
  exists m, length m = length cell /\ Forall2 Qeq y (vshift cell m x).
Proof.
  intros Hc Hx Hy H0. destruct (pd2_attained cell x y Hc Hx Hy) as [m [Lm Em]].
  exists m. split; [exact Lm|]. apply fd2_zero; [|rewrite <- Em; exact H0].
  rewrite vshift_length; congruence.
Qed.

Lemma sq_nn t : 0 <= t * t.
Proof. nra. Qed.

Lemma sq_le a b : 0 <= b -> a * a <= b * b -> a <= b.
Proof. intros Hb H. destruct (Qlt_le_dec b a) as [L|L]; [exfalso; nra|exact L]. Qed.

(* 2 a b S <= a^2 V + b^2 U, because (a^2 V + b^2 U)^2 - (2 a b S)^2 =
   (a^2 V - b^2 U)^2 + 4 (a b)^2 (U V - S^2) >= 0 *)
Lemma cs_step a b S U V :
  0 <= U -> 0 <= V -> S * S <= U * V ->
  (a * b + S) * (a * b + S) <= (a * a + U) * (b * b + V).
Proof.
  intros HU HV HS.
  set (x := a * a * V + b * b * U). set (y := 2 * (a * b * S)).
  assert (Hx : 0 <= x) by (unfold x; nra).
  pose proof (sq_nn (a * a * V - b * b * U)).
  assert (0 <= ((a * b) * (a * b)) * (U * V - S * S)) by (apply Qmult_le_0_compat; [apply sq_nn | lra]).
  assert (Hxy : y * y <= x * x) by (unfold x, y; lra).
  assert (Hy : y <= x) by (now apply sq_le).
  unfold x, y in Hy. nra.
Qed.

Lemma qdot_cs u v : qsq (qdot u v) <= qsqn u * qsqn v.
Proof.
  revert v. induction u as [|a u IH]; intros [|b v];
    try (rewrite ?qdot_nil_l, ?qdot_nil_r; change (qsqn []) with 0; unfold qsq; lra).
  rewrite qdot_cons, !qsqn_cons. specialize (IH v).
  pose proof (qsqn_nonneg u). pose proof (qsqn_nonneg v).
  unfold qsq in *. apply cs_step; assumption.
Qed.

Lemma pd2_tri_sum cell x y : cell_pos cell -> length x = length cell -> length y = length cell ->
  forall z, length z = length cell ->
    pd2 cell x z <= pd2 cell x y + pd2 cell y z + 2 * qdot (wvec cell x y) (wvec cell y z).
Proof.
  apply (cell_ind (fun cell x y => forall z, length z = length cell ->
    pd2 cell x z <= pd2 cell x y + pd2 cell y z + 2 * qdot (wvec cell x y) (wvec cell y z))).
  - intros [|d z] _; [|discriminate]. apply Qle_refl.
  - intros c a b cell' x' y' Hc _ _ _ IH [|d z] Hz; [discriminate|].
    rewrite !pd2_cons, !wvec_cons, qdot_cons. specialize (IH z ltac:(now injection Hz)).
    assert (E : a - d == (a - b) + (b - d)) by ring.
    pose proof (wrap_sq_tri c (a - b) (b - d) Hc) as W. rewrite <- (wrap_comp c _ _ E) in W.
    unfold qsq in *. lra.
Qed.

(* with Cauchy-Schwarz: a = d(x,z)^2, b = d(x,y)^2, c = d(y,z)^2 satisfy a <= b + c + 2 s for some
   s with s^2 <= b c; both root-free forms of sqrt a <= sqrt b + sqrt c follow by arithmetic *)
Lemma pd2_tri_core cell x y z : cell_pos cell ->
  length x = length cell -> length y = length cell -> length z = length cell ->
  exists s, s * s <= pd2 cell x y * pd2 cell y z /\
            pd2 cell x z <= pd2 cell x y + pd2 cell y z + 2 * s.
Proof.
  intros Hc Hx Hy Hz. exists (qdot (wvec cell x y) (wvec cell y z)).
  split; [apply qdot_cs|now apply pd2_tri_sum].
Qed.

Lemma tri_disj A B C S : S * S <= B * C -> A <= B + C + 2 * S ->
  A <= B + C \/ qsq (A - B - C) <= 4 * B * C.
Proof.
  intros CS H. unfold qsq.
  destruct (Qlt_le_dec (B + C) A) as [L|L]; [right|left; exact L].
  assert (0 < A - B - C) by lra. assert (A - B - C <= 2 * S) by lra. nra.
Qed.

Lemma tri_bound A B C S rb rc : 0 <= B -> 0 <= C -> S * S <= B * C -> A <= B + C + 2 * S ->
  0 <= rb -> 0 <= rc -> B <= rb * rb -> C <= rc * rc -> A <= (rb + rc) * (rb + rc).
Proof.
  intros NB NC CS H Hb Hc HB HC.
  assert (BC : B * C <= (rb * rc) * (rb * rc)).
  { assert (B * C <= (rb * rb) * C) by nra. assert ((rb * rb) * C <= (rb * rb) * (rc * rc)) by nra. nra. }
  assert (P0 : 0 <= rb * rc) by nra.
  assert (HS : S <= rb * rc) by (apply sq_le; lra).
  nra.
Qed.

Definition veq (u v : list Q) : Prop := Forall2 Qeq u v.

Lemma veq_refl u : veq u u.
Proof. induction u; constructor; [reflexivity|assumption]. Qed.

Lemma qdot_veq_r u v v' : veq v v' -> qdot u v == qdot u v'.
Proof.
  intros H. revert u. induction H as [|b b' v v' E _ IH]; intros [|a u]; try reflexivity.
  rewrite !qdot_cons, E, IH. reflexivity.
Qed.

Lemma qdot_comm u v : qdot u v == qdot v u.
Proof.
  revert v. induction u as [|a u IH]; intros [|b v]; try reflexivity.
  rewrite !qdot_cons, IH. ring.
Qed.

Lemma qdot_repeat0_l n v : qdot (repeat 0 n) v == 0.
Proof.
  revert v. induction n as [|n IH]; intros [|b v]; try reflexivity.
  change (repeat 0 (S n)) with (0 :: repeat 0 n). rewrite qdot_cons, IH. ring.
Qed.

Lemma qdot_repeat0_r u n : qdot u (repeat 0 n) == 0.
Proof. rewrite qdot_comm. apply qdot_repeat0_l. Qed.

Lemma map_veq {A} (f g : A -> Q) l : (forall x, f x == g x) -> veq (map f l) (map g l).
Proof. intros H. induction l; constructor; [apply H|assumption]. Qed.

Lemma mvec_cons0 M a v : veq (mvec (map (cons 0) M) (a :: v)) (mvec M v).
Proof. unfold mvec. rewrite map_map. apply map_veq. intros row. rewrite qdot_cons. ring. Qed.

Lemma veq_trans u v w : veq u v -> veq v w -> veq u w.
Proof.
  intros H. revert w. induction H as [|a b u v E _ IH]; intros w H2; inversion H2; subst; constructor.
  - etransitivity; eassumption.
  - apply IH. assumption.
Qed.

Lemma mvec_ident n v : length v = n -> veq (mvec (ident n) v) v.
Proof.
  revert v. induction n as [|n IH]; intros [|a v] Hv; try discriminate; [constructor|].
  change (ident (S n)) with ((1 :: repeat 0 n) :: map (cons 0) (ident n)).
  change (veq ((1 * a + qdot (repeat 0 n) v) :: mvec (map (cons 0) (ident n)) (a :: v)) (a :: v)).
  constructor.
  - rewrite qdot_repeat0_l. ring.
  - eapply veq_trans; [apply mvec_cons0|]. apply IH. now injection Hv.
Qed.

Lemma qform_ident n v : length v = n -> qform (ident n) v == qsqn v.
Proof.
  intros Hv. unfold qform. rewrite (qdot_veq_r v _ _ (mvec_ident n v Hv)), qdot_self. reflexivity.
Qed.

Lemma vdiff_length x y : length y = length x -> length (vdiff x y) = length x.
Proof. intros H. unfold vdiff. rewrite map2_length, H, Nat.min_id. reflexivity. Qed.

Lemma qdot_scale_r a u p : qdot u (map (Qmult a) p) == a * qdot u p.
Proof.
  revert p. induction u as [|b u IH]; intros [|c p]; cbn [map];
    rewrite ?qdot_nil_l, ?qdot_nil_r, ?qdot_cons, ?IH; ring.
Qed.

Lemma qdot_plus_r u p q : length p = length q ->
  qdot u (map2 Qplus p q) == qdot u p + qdot u q.
Proof.
  revert p q. induction u as [|b u IH]; intros [|c p] [|d q] H; try discriminate; cbn [map2];
    rewrite ?qdot_nil_l, ?qdot_nil_r, ?qdot_cons; [ring..|].
  rewrite IH by (now injection H). ring.
Qed.

Definition rows_len (r : nat) (L : list (list Q)) : Prop := Forall (fun row => length row = r) L.

Lemma tmvec_length r L v : rows_len r L -> length (tmvec r L v) = r.
Proof.
  intros HL. revert v. induction HL as [|row L Hr _ IH]; intros v.
  - cbn. apply repeat_length.
  - destruct v as [|a v]; [cbn; apply repeat_length|].
    cbn [tmvec]. rewrite map2_length, map_length, IH, Hr, Nat.min_id. reflexivity.
Qed.

(* <u, L^T v> = sum_j <u, L_j> v_j *)
Lemma qdot_tmvec r L v u : rows_len r L -> length v = length L ->
  qdot (map (fun rj => qdot u rj) L) v == qdot u (tmvec r L v).
Proof.
  intros HL. revert v. induction HL as [|row L Hr HL IH]; intros [|a v] Hv; try discriminate.
  - cbn [tmvec map]. rewrite qdot_repeat0_r. reflexivity.
  - cbn [tmvec map]. rewrite qdot_cons, IH by (now injection Hv).
    rewrite qdot_plus_r by (rewrite map_length, tmvec_length by exact HL; exact Hr).
    rewrite qdot_scale_r. ring.
Qed.

Lemma mvec_gram r L v : rows_len r L -> length v = length L ->
  veq (mvec (gram L) v) (mvec L (tmvec r L v)).
Proof.
  intros HL Hv. unfold mvec, gram. rewrite map_map. apply map_veq. intros ri. now apply qdot_tmvec.
Qed.

Lemma qdot_mvec_tmvec r L v w : rows_len r L -> length v = length L ->
  qdot v (mvec L w) == qdot (tmvec r L v) w.
Proof.
  intros HL Hv. unfold mvec.
  rewrite (qdot_veq_r v _ _ (map_veq _ (fun rj => qdot w rj) L (fun rj => qdot_comm rj w))).
  rewrite qdot_comm, (qdot_tmvec r L v w HL Hv). apply qdot_comm.
Qed.

Lemma qform_gram r L v : rows_len r L -> length v = length L ->
  qform (gram L) v == qsqn (tmvec r L v).
Proof.
  intros HL Hv. unfold qform.
  rewrite (qdot_veq_r v _ _ (mvec_gram r L v HL Hv)).
  rewrite (qdot_mvec_tmvec r L v _ HL Hv), qdot_self. reflexivity.
Qed.

Lemma qform_gram_nonneg r L v : rows_len r L -> length v = length L -> 0 <= qform (gram L) v.
Proof. intros HL Hv. rewrite (qform_gram r L v HL Hv). apply qsqn_nonneg. Qed.

Lemma mahal_stack_independent X Y Ps cell R :
  pairwise_mahal X Y (Cov3 Ps) cell = Some R ->
  length R = length Ps /\
  forall k, (k < length Ps)%nat ->
    pairwise_mahal X Y (Cov2 (nth k Ps [])) cell = Some [nth k R []].
Proof.
  unfold pairwise_mahal. destruct (check_dimension X cell); [|discriminate].
  destruct (check_pairwise X (Some Y)) as [Y'|]; [|discriminate].
  cbn [cov_stack]. destruct (forallb (square (width X)) Ps) eqn:F; [|discriminate].
  intros E. injection E as <-. split; [apply map_length|].
  intros k Hk. cbn [forallb].
  rewrite forallb_forall in F. rewrite (F (nth k Ps [])) by (apply nth_In; exact Hk).
  cbn [andb map]. rewrite (nth_map_lt _ Ps k [] [] Hk). reflexivity.
Qed.

Lemma periodic_pairwise_some X Y cell M : periodic_pairwise X (Some Y) cell = Some M ->
  check_dimension X cell = true /\ rect (width X) X = true /\ rect (width X) Y = true /\
  M = map (fun x => map (fun y => dist2 cell x y) Y) X.
Proof.
  unfold periodic_pairwise. destruct (check_dimension X cell); [|discriminate].
  unfold check_pairwise. destruct (rect (width X) X); [|discriminate].
  destruct (rect (width X) Y); [|discriminate]. destruct (_ && _); [|discriminate].
  intros E. injection E as <-. repeat split.
Qed.

Lemma periodic_pairwise_entry X Y cell M :
  periodic_pairwise X (Some Y) cell = Some M ->
  length M = length X /\
  forall i j, (i < length X)%nat -> (j < length Y)%nat ->
    nth j (nth i M []) 0 = dist2 cell (nth i X []) (nth j Y []).
Proof.
  intros E. destruct (periodic_pairwise_some X Y cell M E) as [_ [_ [_ ->]]]. split; [apply map_length|].
  intros i j Hi Hj. rewrite (nth_map_lt _ X i [] [] Hi), (nth_map_lt _ Y j 0 [] Hj). reflexivity.
Qed.
