(* Order independence of QuickShift (C16): renaming the points renames the labels.
   [QuickShiftP.limits_conj]: for ANY two successor maps conjugated by a renaming p
   (next' (p i) = p (next i)) the labels are conjugated -- both rules, every n.  Here: the two
   rules' successor maps are conjugated by p when the index tie-breaks of the scan / of np.argmin
   cannot fire (no two heavier points at the same distance from a point; for the cut-off rule,
   the nearest neighbour of every point is unique); for the Gabriel rule D is symmetric. *)
From Verif Require Import QuickShift QuickShiftP.
Local Close Scope Z_scope.
Local Open Scope nat_scope.

Lemma gpath_map n (G G' : list (list bool)) (f : nat -> nat) :
  (forall x, x < n -> f x < n) ->
  (forall x y, x < n -> y < n -> bget G' (f x) (f y) = bget G x y) ->
  forall k a b, gpath n G k a b -> a < n -> b < n -> gpath n G' k (f a) (f b).
Proof.
  intros Hf HG k a b P. induction P as [a b H|k a j b P IH Hj H]; intros Ha Hb.
  - constructor. rewrite HG by assumption. exact H.
  - apply (gpath_S n G' k (f a) (f j) (f b)); [apply IH; assumption|apply Hf; exact Hj|].
    rewrite HG by assumption. exact H.
Qed.

Section Perm.
  Variable n : nat.
  Variables D D' : list (list ExtZ).
  Variables w w' : list Z.
  Variables p p' : nat -> nat.
  Hypothesis HD : sq_mat n D.
  Hypothesis HD' : sq_mat n D'.
  Hypothesis Hw : length w = n.
  Hypothesis Hw' : length w' = n.
  Hypothesis p_lt : forall i, i < n -> p i < n.
  Hypothesis p'_lt : forall j, j < n -> p' j < n.
  Hypothesis p_p' : forall j, j < n -> p (p' j) = j.
  Hypothesis p'_p : forall i, i < n -> p' (p i) = i.
  Hypothesis HDp : forall i j, i < n -> j < n -> dget D' (p i) (p j) = dget D i j.
  Hypothesis Hwp : forall i, i < n -> wt w' (p i) = wt w i.
  Hypothesis Hsym : dsym n D.

  (* no two strictly heavier points at the same distance from a point *)
  Definition no_dist_ties : Prop :=
    forall c j j', c < n -> j < n -> j' < n -> (wt w c < wt w j)%Z -> (wt w c < wt w j')%Z ->
      dget D c j = dget D c j' -> j = j'.
  (* the nearest neighbour (row minimum) of every point is unique *)
  Definition unique_nn : Prop :=
    forall c j, c < n -> j < n -> dget D c j = dget D c (argmin_row (nth c D [])) -> j = argmin_row (nth c D []).

  (* the scan: same bound, renamed mask, renamed start *)
  Section ScanPerm.
    Variable c : nat.
    Variable bound : ExtZ.
    Variables allowed allowed' : nat -> bool.
    Variable init : nat.
    Hypothesis Hc : c < n.
    Hypothesis Hal : forall j, j < n -> allowed' (p j) = allowed j.
    Hypothesis Ht : no_dist_ties.

    Lemma adm_perm j : j < n ->
      (adm D' w' (p c) bound allowed' (p j) <-> adm D w c bound allowed j).
    Proof.
      intros Hj. unfold adm, admb. rewrite HDp, !Hwp, Hal, Hw, Hw' by assumption.
      split; intros [_ A]; (split; [|exact A]); [exact Hj|apply p_lt, Hj].
    Qed.

    Lemma scan_perm : scan D' w' (p c) bound allowed' (p init) = p (scan D w c bound allowed init).
    Proof.
      pose proof (scan_cases D w c bound allowed init) as S.
      pose proof (scan_cases D' w' (p c) bound allowed' (p init)) as S'. cbv zeta in S, S'.
      set (nx := scan D w c bound allowed init) in *.
      set (nx' := scan D' w' (p c) bound allowed' (p init)) in *.
      assert (back : adm D' w' (p c) bound allowed' nx' ->
                     exists a, a < n /\ p a = nx' /\ adm D w c bound allowed a).
      { intros A'. assert (H : nx' < n) by (rewrite <- Hw'; apply A').
        exists (p' nx'). split; [apply p'_lt, H|]. split; [apply p_p', H|].
        apply adm_perm; [apply p'_lt, H|]. rewrite p_p' by exact H. exact A'. }
      destruct S as [[E Hno]|[A B]], S' as [[E' Hno']|[A' B']].
      - rewrite E, E'. reflexivity.
      - destruct (back A') as (a & _ & _ & Aa). destruct (Hno a Aa).
      - destruct (Hno' (p nx)). apply adm_perm; [rewrite <- Hw; apply A|exact A].
      - (* the nearest admissible point of either side is admissible and nearest on the other *)
        destruct (back A') as (a & Ha & Epa & Aa). assert (Hnx : nx < n) by (rewrite <- Hw; apply A).
        destruct (B a Aa) as [Le1 _]. destruct (B' (p nx)) as [Le2 _]; [apply adm_perm; assumption|].
        rewrite <- Epa in Le2 |- *. rewrite !HDp in Le2 by assumption. f_equal.
        apply (Ht c a nx Hc Ha Hnx); [exact (adm_weight _ _ _ _ _ _ Aa)|exact (adm_weight _ _ _ _ _ _ A)|].
        apply ext_le_antisym; assumption.
    Qed.
  End ScanPerm.

  Lemma argmin_perm : unique_nn -> forall c, c < n ->
    argmin_row (nth (p c) D' []) = p (argmin_row (nth c D [])).
  Proof.
    intros Hu c Hc.
    pose proof (sq_mat_row n D c HD Hc) as R1. pose proof (sq_mat_row n D' (p c) HD' (p_lt c Hc)) as R2.
    set (nn := argmin_row (nth c D [])). set (nn' := argmin_row (nth (p c) D' [])).
    destruct (argmin_row_spec (nth c D [])) as [L1 M1]; [intros E; rewrite E in R1; cbn in R1; lia|].
    destruct (argmin_row_spec (nth (p c) D' [])) as [L2 M2]; [intros E; rewrite E in R2; cbn in R2; lia|].
    cbv zeta in *. fold nn in L1, M1. fold nn' in L2, M2. rewrite R1 in L1, M1. rewrite R2 in L2, M2.
    set (a := p' nn'). assert (Ha : a < n) by (apply p'_lt; exact L2).
    assert (Epa : p a = nn') by (apply p_p'; exact L2).
    (* D c a <= D c nn  (through D')  and  D c nn <= D c a *)
    destruct (M2 (p nn) (p_lt nn L1)) as [Le2 _]. destruct (M1 a Ha) as [Le1 _].
    fold (dget D' (p c) nn') (dget D' (p c) (p nn)) in Le2. fold (dget D c nn) (dget D c a) in Le1.
    rewrite <- Epa in Le2. rewrite !HDp in Le2 by assumption.
    rewrite <- Epa. f_equal. apply (Hu c a Hc Ha). apply ext_le_antisym; assumption.
  Qed.

  Variables cut cut' : list Z.
  Hypothesis Hcp : forall i, i < n -> nth (p i) cut' 0%Z = nth i cut 0%Z.

  Theorem next_cut_perm : no_dist_ties -> unique_nn ->
    forall c, c < n -> next_cut D' w' cut' (p c) = p (next_cut D w cut c).
  Proof.
    intros Ht Hu c Hc. unfold next_cut, qs_next.
    rewrite (Hcp c Hc), (argmin_perm Hu c Hc), !Hwp by (try apply argmin_lt; assumption).
    destruct (_ <? _)%Z; apply scan_perm; auto.
  Qed.

  Lemma dsym_perm : dsym n D'.
  Proof.
    intros a b Ha Hb. rewrite <- (p_p' a Ha), <- (p_p' b Hb).
    rewrite !HDp by (apply p'_lt; assumption). apply Hsym; apply p'_lt; assumption.
  Qed.

  Lemma gabriel_perm i j : i < n -> j < n ->
    bget (gabriel D') (p i) (p j) = bget (gabriel D) i j.
  Proof.
    intros Hi Hj. apply Bool.eq_iff_eq_true.
    rewrite (gabriel_bruteforce n D' (p i) (p j) (proj1 HD') dsym_perm (p_lt i Hi) (p_lt j Hj)).
    rewrite (gabriel_bruteforce n D i j (proj1 HD) Hsym Hi Hj).
    split; intros [Hne Hno]; split.
    - intros ->. apply Hne. reflexivity.
    - intros (k & Hk & E). apply Hno. exists (p k). split; [apply p_lt; exact Hk|].
      rewrite !HDp by assumption. exact E.
    - intros E. apply Hne. rewrite <- (p'_p i Hi), <- (p'_p j Hj), E. reflexivity.
    - intros (k & Hk & E). apply Hno. exists (p' k). split; [apply p'_lt; exact Hk|].
      rewrite <- (p_p' k Hk) in E. rewrite !HDp in E by (try apply p'_lt; assumption). exact E.
  Qed.

  Lemma gabriel_perm_inv x y : x < n -> y < n ->
    bget (gabriel D) (p' x) (p' y) = bget (gabriel D') x y.
  Proof.
    intros Hx Hy. rewrite <- (gabriel_perm (p' x) (p' y)) by (apply p'_lt; assumption).
    rewrite !p_p' by assumption. reflexivity.
  Qed.

  Variable shell : nat.

  Lemma in_shell_perm c b : c < n -> b < n ->
    in_shell D' shell (p c) (p b) = in_shell D shell c b.
  Proof.
    intros Hc Hb. unfold in_shell. apply Bool.eq_iff_eq_true.
    rewrite (shell_set_spec n (gabriel D') (gabriel_sq n D' (proj1 HD')) shell (p c) (p b) (p_lt c Hc)).
    rewrite (shell_set_spec n (gabriel D) (gabriel_sq n D (proj1 HD)) shell c b Hc).
    split; intros (k & Hk & P); exists k; (split; [exact Hk|]).
    - rewrite <- (p'_p c Hc), <- (p'_p b Hb).
      apply (gpath_map n (gabriel D') (gabriel D) p' p'_lt gabriel_perm_inv k (p c) (p b) P); apply p_lt; assumption.
    - apply (gpath_map n (gabriel D) (gabriel D') p p_lt gabriel_perm k c b P); assumption.
  Qed.

  Theorem next_gab_perm : no_dist_ties ->
    forall c, c < n -> next_gab D' w' shell (p c) = p (next_gab D w shell c).
  Proof.
    intros Ht c Hc.
    exact (scan_perm c None (in_shell D shell c) (in_shell D' shell (p c)) c Hc
             (fun j Hj => in_shell_perm c j Hc Hj) Ht).
  Qed.
End Perm.
