(* The fold choice of Ridge2FoldCV.fit.  Unshuffled KFold (Model/Ridge2FoldFit.v, [kfold_first]):
   arithmetic and list facts.  Shuffled KFold (Model/Ridge2FoldShuffle.v): for every permutation
   of the sample indices the two folds partition the samples, fold 2 consists of the first h
   entries of the permutation, the sizes are h and n - h.  Stdlib style. *)
From Coq Require Import ZArith List Bool Arith Lia Permutation.
From Verif Require Import Ridge2FoldFit Ridge2FoldShuffle ListXP.
Import ListNotations.

(* h = ceil(n / k) *)
Lemma kfold_h_spec n k : 2 <= k -> k <= n ->
  n <= kfold_h n k * k /\ kfold_h n k * k < n + k /\ 0 < kfold_h n k /\ kfold_h n k < n.
Proof.
  intros Hk Hn. unfold kfold_h.
  assert (k0 : k <> 0) by lia.
  pose proof (Nat.div_mod n k k0) as E.
  pose proof (Nat.mod_upper_bound n k k0) as B.
  destruct (Nat.eqb_spec (n mod k) 0) as [Z | NZ].
  - rewrite Z in E. assert (D : 1 <= n / k) by nia. nia.
  - assert (D : 1 <= n / k) by (destruct (n / k) eqn:Q; [ nia | lia ]). nia.
Qed.

(* the first yield of KFold(k).split on n samples: fold 2 (the test part) is the block
   [0, h), fold 1 (the training part) the block [h, n), h = ceil(n / k); together they list
   every sample exactly once, in order; both are non-empty *)
Lemma kfold_first_spec n k : 2 <= k -> k <= n ->
  let h := kfold_h n k in
  let f1 := fst (kfold_first n k) in
  let f2 := snd (kfold_first n k) in
  f2 = seq 0 h /\ f1 = seq h (n - h) /\ f2 ++ f1 = seq 0 n /\
  length f2 = h /\ length f1 = n - h /\ 0 < h /\ h < n.
Proof.
  intros Hk Hn h f1 f2.
  destruct (kfold_h_spec n k Hk Hn) as (H1 & H2 & H3 & H4).
  unfold f1, f2, kfold_first; cbn [fst snd]; fold h.
  repeat split; try (rewrite seq_length; reflexivity); try assumption.
  replace n with (h + (n - h)) at 2 by (unfold h; lia).
  now rewrite seq_app.
Qed.

(* cv=None (two splits): the folds differ in size by at most one, fold 2 gets the extra sample *)
Lemma kfold2_sizes n : 2 <= n ->
  let f1 := fst (kfold_first n 2) in
  let f2 := snd (kfold_first n 2) in
  length f1 + length f2 = n /\ length f1 <= length f2 /\ length f2 <= S (length f1).
Proof.
  intros Hn f1 f2.
  destruct (kfold_first_spec n 2 (le_n 2) Hn) as (_ & _ & _ & L2 & L1 & _ & _).
  destruct (kfold_h_spec n 2 (le_n 2) Hn) as (H1 & H2 & H3 & H4).
  unfold f1, f2; rewrite L1, L2. lia.
Qed.

Lemma kfold_first_in_range n k : 2 <= k -> k <= n ->
  forall i, In i (fst (kfold_first n k) ++ snd (kfold_first n k)) -> i < n.
Proof.
  intros Hk Hn i Hi.
  destruct (kfold_h_spec n k Hk Hn) as (H1 & H2 & H3 & H4).
  unfold kfold_first in Hi; cbn [fst snd] in Hi.
  apply in_app_or in Hi; destruct Hi as [Hi | Hi]; apply in_seq in Hi; lia.
Qed.

Lemma filter_partition (A : Type) (f : A -> bool) (l : list A) :
  Permutation (filter f l ++ filter (fun x => negb (f x)) l) l.
Proof.
  induction l as [|x l IH]; cbn [filter]; [constructor|].
  destruct (f x); cbn [negb app].
  - now constructor.
  - apply Permutation_sym, Permutation_cons_app, Permutation_sym, IH.
Qed.

Section Shuffled.
  Variables (n k : nat) (perm : list nat).
  Hypothesis Hk : 2 <= k.
  Hypothesis Hn : k <= n.
  Hypothesis Hperm : Permutation perm (seq 0 n).
  Let h := kfold_h n k.
  Let top := firstn h perm.
  Let f1 := fst (kfold_first_shuffled n k perm).
  Let f2 := snd (kfold_first_shuffled n k perm).

  Lemma shuffled_partition : Permutation (f2 ++ f1) (seq 0 n).
  Proof. unfold f1, f2, kfold_first_shuffled; cbn [fst snd]. apply filter_partition. Qed.

  Lemma top_in_range i : In i top -> In i (seq 0 n).
  Proof.
    intros H; apply (Permutation_in _ Hperm).
    rewrite <- (firstn_skipn h perm); apply in_or_app; now left.
  Qed.

  Lemma shuffled_fold2_members i : In i f2 <-> In i top.
  Proof.
    unfold f2, kfold_first_shuffled; cbn [snd]; fold h; fold top.
    rewrite filter_In, memb_In; split; [tauto|].
    intros H; split; [now apply top_in_range | assumption].
  Qed.

  Lemma shuffled_fold1_members i : In i f1 <-> (i < n /\ ~ In i top).
  Proof.
    unfold f1, kfold_first_shuffled; cbn [fst]; fold h; fold top.
    rewrite filter_In, in_seq, negb_true_iff, <- not_true_iff_false, memb_In. intuition lia.
  Qed.

  Lemma shuffled_sizes : length f2 = h /\ length f1 = n - h.
  Proof.
    destruct (kfold_h_spec n k Hk Hn) as (H1 & H2 & H3 & H4); fold h in H1, H2, H3, H4.
    assert (Ln : length perm = n) by (rewrite (Permutation_length Hperm); apply seq_length).
    assert (L2 : length f2 = h).
    { assert (ND2 : NoDup f2).
      { unfold f2, kfold_first_shuffled; cbn [snd]. apply NoDup_filter, seq_NoDup. }
      assert (NDt : NoDup top).
      { apply firstn_NoDup. apply (Permutation_NoDup (Permutation_sym Hperm)), seq_NoDup. }
      rewrite (Permutation_length (NoDup_Permutation ND2 NDt shuffled_fold2_members)).
      unfold top; apply firstn_length_le; lia. }
    split; [assumption|].
    pose proof (Permutation_length shuffled_partition) as L.
    rewrite app_length, seq_length in L. lia.
  Qed.
End Shuffled.

(* the first yield of KFold(k, shuffle=True).split for the permutation [perm] drawn by the
   random state: a partition of the samples; fold 2 = the first h = ceil(n/k) entries of the
   permutation, fold 1 = the remaining samples; sizes h and n - h; both listed in ascending
   order (they are filters of 0, 1, ..., n-1) *)
Lemma kfold_first_shuffled_spec n k perm : 2 <= k -> k <= n -> Permutation perm (seq 0 n) ->
  let h := kfold_h n k in
  let f1 := fst (kfold_first_shuffled n k perm) in
  let f2 := snd (kfold_first_shuffled n k perm) in
  Permutation (f2 ++ f1) (seq 0 n) /\
  (forall i, In i f2 <-> In i (firstn h perm)) /\
  (forall i, In i f1 <-> i < n /\ ~ In i (firstn h perm)) /\
  length f2 = h /\ length f1 = n - h /\
  (exists g, f2 = filter g (seq 0 n)) /\ (exists g, f1 = filter g (seq 0 n)).
Proof.
  intros Hk Hn Hp h f1 f2.
  destruct (shuffled_sizes n k perm Hk Hn Hp) as (L2 & L1).
  split; [eapply shuffled_partition; eassumption|].
  split; [intro i; eapply shuffled_fold2_members; eassumption|].
  split; [intro i; eapply shuffled_fold1_members; eassumption|].
  split; [exact L2|]. split; [exact L1|].
  split; eexists; reflexivity.
Qed.
