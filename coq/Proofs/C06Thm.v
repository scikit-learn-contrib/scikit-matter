(* C06: VoronoiFPS = plain FPS for every branch schedule; the timing calibration of the
   switching point ends inside [0,1). *)
From Verif Require Import ListX Greedy FPS Voronoi VorCalib ListXP FPSInst VoronoiP SimP C02Thm.

Section C06.
  Variable cs : list (list Z).
  Variable d : nat.
  Hypothesis Hdim : dims d cs.
  Variable br : nat -> nat -> bool.
  Variable ycand : option (list (list Z)).
  Notation n := (length cs).
  Notation dist := (fps_dist cs).

  Definition VR (vs : vst) (fs : dst) (sl : list nat) : Prop :=
    VInv cs vs sl /\ haus fs = v_haus vs /\ hsel fs = v_hsel vs.

  Lemma VR_score vs fs sl : VR vs fs sl -> vscore vs = dscore fs.
  Proof. intros (_ & H & _). unfold vscore, dscore. now rewrite H. Qed.

  Lemma VR_len vs fs sl : VR vs fs sl -> length (vscore vs) = n.
  Proof. intros ((_ & _ & H & _) & _). unfold vscore. now rewrite map_length. Qed.

  Lemma VR_upd vs fs sl i :
    VR vs fs sl -> (i < n)%nat ->
    VR (vupd cs br vs i) (dupd (fps_norms cs) (fps_cross cs) fs i) (sl ++ [i]).
  Proof.
    intros (HV & Hh & Hs) Hi.
    destruct (vupd_inv cs d Hdim br vs sl i HV Hi) as (HV' & Hhaus & Hhsel).
    split; [exact HV'|]. split.
    - cbn [dupd haus]. rewrite Hhaus, Hh.
      rewrite (VInv_tab cs vs sl HV), (fps_newdist cs d Hdim i Hi). unfold new_tab.
      now rewrite map2_map.
    - cbn [dupd hsel]. rewrite Hhsel, Hh, Hs. reflexivity.
  Qed.

  Lemma VR_init : VR (vst0 cs) (dst0 n) [].
  Proof.
    split; [|split; reflexivity].
    unfold VInv, vst0; cbn.
    split; [reflexivity|]. split; [constructor|]. split; [apply repeat_length|].
    split; [apply repeat_length|]. split; [apply repeat_length|]. split.
    - symmetry. apply map_const_seq.
    - congruence.
  Qed.

  Notation gs := (gsim vst dst VR).

  Lemma init_sim i0 : (i0 < n)%nat ->
    gs (vor_init cs br ycand i0) (fps_init cs ycand [i0]).
  Proof.
    intros Hi. unfold vor_init, vor_post, fps_init. cbn [fold_left].
    apply (post_sim vst dst (vupd cs br) (dupd (fps_norms cs) (fps_cross cs)) cs ycand VR VR_upd).
    - unfold gsim; cbn. split; [reflexivity|]. split; [reflexivity|]. split; [reflexivity|].
      split; [reflexivity|]. apply VR_init.
    - exact Hi.
  Qed.

  (* a warm-started continuation preserves the correspondence (so does any chain of them) *)
  Theorem voronoi_warm g1 g2 t niter :
    gs g1 g2 ->
    gs (fst (vor_run cs br ycand t niter g1)) (fst (fps_run cs ycand t niter g2)) /\
    snd (vor_run cs br ycand t niter g1) = snd (fps_run cs ycand t niter g2).
  Proof using Hdim.
    exact (run_sim_len vst dst vscore dscore (vupd cs br) (dupd (fps_norms cs) (fps_cross cs)) cs ycand
                       VR VR_score VR_len VR_upd t niter g1 g2).
  Qed.

  Lemma gs_outputs g1 g2 :
    gs g1 g2 ->
    sel g1 = sel g2 /\ xsel g1 = xsel g2 /\ ysel g1 = ysel g2 /\
    v_haus (sst g1) = haus (sst g2) /\ vor_select_distance g1 = select_distance g2 /\
    VInv cs (sst g1) (sel g1).
  Proof.
    intros (A & B & Cc & _ & HV & Hh & Hhs). unfold vor_select_distance, select_distance.
    rewrite <- A, Hh, Hhs. auto 6.
  Qed.

  (* main statement, for every branch oracle: a cold fit is a continuation of the first selection *)
  Theorem voronoi_equals_fps i0 t niter :
    (i0 < n)%nat ->
    let rv := vor_fit cs br ycand i0 t niter in
    let rf := fps_fit cs ycand [i0] t niter in
    sel (fst rv) = sel (fst rf) /\ xsel (fst rv) = xsel (fst rf) /\ ysel (fst rv) = ysel (fst rf) /\
    v_haus (sst (fst rv)) = haus (sst (fst rf)) /\
    vor_select_distance (fst rv) = select_distance (fst rf) /\
    snd rv = snd rf.
  Proof using Hdim.
    intros Hi. destruct (voronoi_warm _ _ t niter (init_sim i0 Hi)) as [Hs Hst].
    destruct (gs_outputs _ _ Hs) as (A & B & Cc & D & E & _). cbv zeta. auto 6.
  Qed.

  (* the cell invariant holds after every fit: each candidate's recorded cell centre is
     selected and realises its table entry *)
  Theorem voronoi_cells i0 t niter :
    (i0 < n)%nat ->
    let g := fst (vor_fit cs br ycand i0 t niter) in
    VInv cs (sst g) (sel g).
  Proof using Hdim. intros Hi. apply (gs_outputs _ _ (proj1 (voronoi_warm _ _ t niter (init_sim i0 Hi)))). Qed.
End C06.

Lemma calib_range fuel outs k lo :
  0 <= lo < 2 ^ Z.of_nat k ->
  let '(k', lo') := calib fuel outs k lo in 0 <= lo' < 2 ^ Z.of_nat k'.
Proof.
  revert k lo; induction fuel as [|f IH]; intros k lo H; cbn [calib]; [exact H|].
  destruct (calib_continue k); [|exact H].
  apply IH. rewrite Nat2Z.inj_succ, Z.pow_succ_r by lia. destruct (outs k); lia.
Qed.

Theorem calibrate_range outs :
  let '(k, lo) := calibrate outs in k = 7%nat /\ 0 <= lo < 128.
Proof.
  (* the number of halvings does not depend on the outcomes: evaluation never asks for them *)
  assert (Hk : fst (calibrate outs) = 7%nat) by reflexivity.
  pose proof (calib_range 8 outs 0 0 ltac:(cbn; lia)) as Hr. fold (calibrate outs) in Hr.
  destruct (calibrate outs) as [k lo]. cbn in Hk. subst k. split; [reflexivity|].
  change (2 ^ Z.of_nat 7) with 128 in Hr. exact Hr.
Qed.

(* the STORED value (lower if lower > 0 else top) is k/128 with 0 < k < 128 *)
Theorem calibrate_stored_range outs :
  let '(k, v) := calibrate_stored outs in k = 7%nat /\ 0 < v < 128.
Proof.
  unfold calibrate_stored. pose proof (calibrate_range outs) as H.
  destruct (calibrate outs) as [k lo]. destruct H as (-> & Hr). cbn [calib_store].
  split; [reflexivity|]. destruct (0 <? lo) eqn:E; [apply Z.ltb_lt in E|apply Z.ltb_ge in E]; lia.
Qed.
