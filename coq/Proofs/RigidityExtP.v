(* The rank_diff clause of the prediction rigidities (ssreflect/mathcomp style).
   Part 1: rank algebra over a real closed field: rank of a diagonal matrix, of a singular
           value decomposition, of a Gram matrix and of the regularised covariance.
   Part 2: np.linalg.matrix_rank's threshold rule (Model/RigidityExt.v, [rank_of_sv_g])
           instantiated over the field, and the rank_diff theorems about the model. *)
From mathcomp Require Import all_ssreflect all_algebra.
From Verif Require Import MExpMx MxFrobP Rigidity RigidityP RigidityExt.
Set Implicit Arguments.
Unset Strict Implicit.
Unset Printing Implicit Defensive.
Import Order.Theory GRing.Theory Num.Theory.
Close Scope float_scope.
Local Open Scope ring_scope.

Section RankAlgebra.
  Variable F : rcfType.

  Lemma mulmx_tr_eq0 m n (M : 'M[F]_(m, n)) : M *m M^T = 0 -> M = 0.
  Proof. exact: gramT_eq0. Qed.

  Lemma rank_gram k d (Z : 'M[F]_(k, d)) : \rank (Z^T *m Z) = \rank Z.
  Proof.
    have E : (kermx (Z^T *m Z) == kermx Z^T)%MS.
      apply/andP; split; apply/sub_kermxP.
      - apply: mulmx_tr_eq0; rewrite trmx_mul trmxK mulmxA -(mulmxA _ Z^T).
        by rewrite mulmx_ker mul0mx.
      - by rewrite mulmxA mulmx_ker mul0mx.
    have := eqmx_rank E; rewrite !mxrank_ker mxrank_tr => H.
    have l1 := rank_leq_col Z.
    have l2 : (\rank (Z^T *m Z) <= d)%N by exact: rank_leq_row.
    by rewrite -(subKn l1) -(subKn l2) H.
  Qed.

  Lemma reg_unit k d (Z : 'M[F]_(k, d)) (a : F) : 0 < a -> reg Z a \in unitmx.
  Proof.
    move=> a0; rewrite -row_free_unit; apply: inj_row_free => v vA.
    apply/eqP; apply: contraT => v0.
    by have := reg_pos Z a0 v0; rewrite /qf vA mul0mx mxE ltxx.
  Qed.

  (* exact rank of the regularised covariance: full for alpha > 0, rank Z for alpha = 0 *)
  Lemma rank_reg_pos k d (Z : 'M[F]_(k, d)) (a : F) : 0 < a -> \rank (reg Z a) = d.
  Proof. by move=> a0; apply: mxrank_unit; apply: reg_unit. Qed.

  Lemma rank_reg0 k d (Z : 'M[F]_(k, d)) : \rank (reg Z 0) = \rank Z.
  Proof. by rewrite /reg -scalemx1 scale0r addr0 rank_gram. Qed.

  Lemma rank_scalar1 (a : F) : \rank (a%:M : 'M_1) = (a != 0).
  Proof.
    case: eqP => [->|/eqP a0]; first by rewrite -scalemx1 scale0r mxrank0.
    by rewrite -scalemx1 mxrank_scale_nz // mxrank1.
  Qed.

  Section Diag.
    Variables (d : nat) (s : 'rV[F]_d).

    (* split off the first entry: diag (a, r) is the block matrix of a and diag r *)
    Lemma rank_diag_mx : \rank (diag_mx s) = #|[pred i | s ord0 i != 0]|.
    Proof.
      elim: (d) (s) => [|n IH] r.
        by rewrite [diag_mx r]flatmx0 mxrank0; apply/esym/eq_card0 => -[].
      rewrite -{1}[r](@hsubmxK _ 1 1 n) (@diag_mx_row _ n 1) (@rank_diag_block_mx _ 1 1 n n) IH.
      rewrite [diag_mx _]mx11_scalar rank_scalar1 -!sum1_card big_mkcond [in RHS]big_mkcond /=.
      rewrite big_ord_recl /= !inE !mxE eqxx mulr1n -[if r ord0 ord0 != 0 then _ else _]/(nat_of_bool _).
      congr (addn (nat_of_bool (r _ _ != 0)) _); first exact: val_inj.
      apply: eq_bigr => i _; rewrite !inE mxE.
      by congr (if (r _ _ != 0) then _ else _); apply: val_inj.
    Qed.
  End Diag.

  (* rank of a decomposition U diag(s) V with invertible outer factors *)
  Lemma rank_svd d (U V : 'M[F]_d) (s : 'rV[F]_d) :
    U \in unitmx -> V \in unitmx ->
    \rank (U *m diag_mx s *m V) = #|[pred i | s ord0 i != 0]|.
  Proof.
    move=> Uu Vu; rewrite mxrankMfree ?row_free_unit //.
    rewrite -mxrank_tr trmx_mul mxrankMfree ?row_free_unit ?unitmx_tr //.
    by rewrite mxrank_tr rank_diag_mx.
  Qed.
End RankAlgebra.

(* Part 2: the threshold rule *)
(* the operations record of Model/RigidityExt.v over the field; eps is a parameter *)
Definition F_ops (F : rcfType) (e : F) : fops F :=
  {| o_zero := 0; o_ltb := fun a b => a < b; o_mul := fun a b => a * b;
     o_ofnat := fun n => n%:R; o_eps := e |}.

(* the binary64 instance is Rigidity.rank_of_sv *)
Lemma rank_of_sv_generic dim sv : rank_of_sv dim sv = rank_of_sv_g float_ops dim sv.
Proof. by []. Qed.
Lemma rank_diff_generic dim sv : rank_diff_model dim sv = rank_diff_g float_ops dim sv.
Proof. by []. Qed.

Section ThresholdF.
  Variable F : rcfType.
  Variable e : F.
  Local Notation ops := (F_ops e).

  Lemma foldmax_ge (l : seq F) acc :
    acc <= List.fold_left (fun a x => if a < x then x else a) l acc.
  Proof.
    elim: l acc => //= x l IH acc; case: ifP => [ax|_]; last exact: IH.
    exact: le_trans (ltW ax) (IH x).
  Qed.

  Lemma sv_tol_ge0 dim (sv : seq F) : 0 <= e -> 0 <= sv_tol ops dim sv.
  Proof.
    by move=> e0; rewrite /sv_tol /=; apply: mulr_ge0 e0; apply: mulr_ge0 (foldmax_ge _ _) (ler0n _ _).
  Qed.

  Lemma rank_of_sv_count dim (sv : seq F) :
    rank_of_sv_g ops dim sv = count (fun x => sv_tol ops dim sv < x) sv.
  Proof. by rewrite -size_filter. Qed.

  (* the reported difference counts the values at or below the threshold *)
  Lemma rank_diff_count (sv : seq F) :
    rank_diff_g ops (size sv) sv = count (fun x => x <= sv_tol ops (size sv) sv) sv.
  Proof.
    rewrite /rank_diff_g minusE rank_of_sv_count; set t := sv_tol _ _ _.
    rewrite -[X in (X - _)%N](count_predC (fun x => t < x) sv) addKn.
    by apply: eq_count => x /=; rewrite leNgt.
  Qed.

  Lemma count_codom d (p : pred F) (f : 'I_d -> F) :
    count p [seq f i | i <- enum 'I_d] = #|[pred i | p (f i)]|.
  Proof.
    rewrite count_map -size_filter cardE [in RHS]/enum_mem -enumT.
    by congr size; apply: eq_filter => x; rewrite !inE.
  Qed.
End ThresholdF.

(* accessors for the SVD variables 7-9 of Model/RigidityExt.v *)
Definition e_U (F : rcfType) (env : env_mx F) d : 'M[F]_d := env d d 7%N.
Definition e_S (F : rcfType) (env : env_mx F) d : 'cV[F]_d := env d 1%N 8%N.
Definition e_Vt (F : rcfType) (env : env_mx F) d : 'M[F]_d := env d d 9%N.
(* the singular values as the list handed to the threshold rule *)
Definition svl (F : rcfType) (env : env_mx F) d : seq F :=
  [seq e_S env d i ord0 | i <- enum 'I_d].

(* the oracle hypotheses on (U, s, Vt): residual programs evaluate to 0 *)
Definition svd_hyp (F : rcfType) (env : env_mx F) (d N S : nat) : Prop :=
  [/\ eval_mx env (svd_recon_prog d N S) = 0, eval_mx env (svd_orthU_prog d) = 0
    & eval_mx env (svd_orthV_prog d) = 0].

Section RankTheorems.
  Variable F : rcfType.
  Variables (d N S : nat).
  Variable e : F.
  Implicit Types env : env_mx F.
  Local Notation ops := (F_ops e).
  Local Notation A env := (reg (Xstruc d N S env) (e_alpha env)).
  Local Notation tol env := (sv_tol ops d (svl env d)).

  Lemma svd_hyp_eq0 env :
    svd_hyp env d N S <->
    [/\ e_U env d *m diag_mx (e_S env d)^T *m e_Vt env d = A env,
        (e_U env d)^T *m e_U env d = 1%:M & e_Vt env d *m (e_Vt env d)^T = 1%:M].
  Proof.
    rewrite /svd_hyp /svd_recon_prog /svd_orthU_prog /svd_orthV_prog !evSub xprimeE /=.
    split=> [[/subr0_eq H1 /subr0_eq H2 /subr0_eq H3]|[-> -> ->]]; first by split.
    by rewrite !subrr.
  Qed.

  Lemma svd_hypE env :
    svd_hyp env d N S ->
    [/\ A env = e_U env d *m diag_mx (e_S env d)^T *m e_Vt env d,
        e_U env d \in unitmx & e_Vt env d \in unitmx].
  Proof.
    case/svd_hyp_eq0=> H1 H2 H3; split; first by rewrite -H1.
    - by case/mulmx1_unit: H2.
    - by case/mulmx1_unit: H3.
  Qed.

  Lemma size_svl env : size (svl env d) = d.
  Proof. by rewrite size_map size_enum_ord. Qed.

  (* singular values at or below the threshold zeroed *)
  Definition trunc_sv env : 'rV[F]_d :=
    \row_i (if tol env < e_S env d i ord0 then e_S env d i ord0 else 0).

  (* always: the reported value is d minus the rank of the truncated decomposition *)
  Theorem rig_rank_diff_trunc env :
    svd_hyp env d N S -> 0 <= e ->
    rank_diff_g ops d (svl env d)
    = (d - \rank (e_U env d *m diag_mx (trunc_sv env) *m e_Vt env d))%N.
  Proof.
    move=> /svd_hypE [_ Uu Vu] e0; rewrite rank_svd // /rank_diff_g minusE rank_of_sv_count.
    rewrite count_codom; congr (d - _)%N; apply: eq_card => i; rewrite !inE mxE.
    case: ifP => [ti|]; last by rewrite eqxx.
    by rewrite gt_eqF //; apply: le_lt_trans ti; apply: sv_tol_ge0.
  Qed.

  (* when the threshold separates the non-zero singular values from 0, the reported value
     is the feature dimension minus the rank of the regularised covariance *)
  Theorem rig_rank_diff env :
    svd_hyp env d N S -> 0 <= e ->
    (forall i, e_S env d i ord0 != 0 -> tol env < e_S env d i ord0) ->
    rank_diff_g ops d (svl env d) = (d - \rank (A env))%N.
  Proof.
    move=> H e0 sep; rewrite (rig_rank_diff_trunc H e0).
    case/svd_hypE: H => -> _ _; suff -> : trunc_sv env = (e_S env d)^T by [].
    apply/rowP => i; rewrite !mxE; case: ifP => // /negbT nt.
    by apply/esym/eqP; apply: contraNT nt => /sep.
  Qed.
End RankTheorems.

Section NonVacuityX.
  Variable F : rcfType.
  (* tiny_env of RigidityP with the decomposition 2 = 1 * 2 * 1 in variables 7, 8, 9 *)
  Definition tiny_env_x : env_mx F :=
    fun m n x => const_mx (if x == 5%N then 2%:R^-1 else if x == 8%N then 2%:R else 1).

  Lemma tiny_env_x_ok :
    [/\ svd_hyp tiny_env_x 1 1 1, 0 < e_alpha tiny_env_x,
        forall i, e_S tiny_env_x 1 i ord0 != 0 ->
                  sv_tol (F_ops (2%:R^-1 : F)) 1 (svl tiny_env_x 1) < e_S tiny_env_x 1 i ord0
      & rank_diff_g (F_ops (2%:R^-1 : F)) 1 (svl tiny_env_x 1) = 0%N].
  Proof.
    have a1 : e_alpha tiny_env_x = 1 by rewrite /e_alpha mxE.
    have X1 : e_Xtr tiny_env_x 1 1 = const_mx 1 by [].
    have c1 : const_mx 1 = 1%:M :> 'M[F]_1 by apply/matrixP => i j; rewrite !mxE !ord1.
    have S2 : diag_mx (e_S tiny_env_x 1)^T = 2%:R%:M.
      by apply/matrixP => i j; rewrite !mxE /= !ord1 eqxx.
    have H : svd_hyp tiny_env_x 1 1 1.
      have U1 : e_U tiny_env_x 1 = 1%:M by rewrite -c1.
      have V1 : e_Vt tiny_env_x 1 = 1%:M by rewrite -c1.
      by apply/svd_hyp_eq0; rewrite (one_reg X1) // S2 U1 V1 trmx1 mul1mx !mulmx1.
    have sep i : e_S tiny_env_x 1 i ord0 != 0 ->
        sv_tol (F_ops (2%:R^-1 : F)) 1 (svl tiny_env_x 1) < e_S tiny_env_x 1 i ord0.
      move=> _; rewrite /sv_tol /svl enum_ordSl enum_ord0 /= /sv_max /= !mxE /= ltr0n /= mulr1.
      by rewrite divff ?pnatr_eq0 // ltr1n.
    have a0 : 0 < e_alpha tiny_env_x by rewrite a1 ltr01.
    split=> //; rewrite (rig_rank_diff H) ?invr_ge0 ?ler0n //.
    by rewrite rank_reg_pos.
  Qed.
End NonVacuityX.
