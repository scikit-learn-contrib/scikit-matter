(* C08: history independence of the greedy loop, for every scorer. *)
From Verif Require Import ListX Greedy GreedyP.

Section HistoryP.
  Variable S : Type.
  Variable score : S -> list Z.
  Variable upd : S -> nat -> S.
  Variable cand : list (list Z).
  Variable ycand : option (list (list Z)).
  Let n := length cand.
  Variable P : S -> Prop.
  Hypothesis P_len : forall s, P s -> length (score s) = n.
  Hypothesis P_upd : forall s i, P s -> (i < n)%nat -> P (upd s i).

  Notation gst := (gst S).
  Notation post := (post S upd cand ycand).
  Notation best_new := (best_new S score).
  Notation run := (run S score upd cand ycand).
  Notation GI := (GInv S cand ycand P).

  Lemma best_new_nothr g : snd (best_new NoThr g) = g.
  Proof. unfold Greedy.best_new. destruct (amax _) as [[i v]|]; reflexivity. Qed.

  (* requesting more selections continues exactly where fewer would have ended *)
  Theorem run_add a b g :
    fst (run NoThr (a + b) g) = fst (run NoThr b (fst (run NoThr a g))).
  Proof.
    revert g; induction a as [|a IH]; intros g; cbn [Nat.add Greedy.run]; [reflexivity|].
    pose proof (best_new_nothr g) as Hg.
    destruct (best_new NoThr g) as [[i|] g1] eqn:Eb; cbn in Hg; subst g1.
    - apply IH.
    - cbn [fst]. destruct b as [|b]; cbn [Greedy.run]; [reflexivity|]. now rewrite Eb.
  Qed.

  Lemma run_len k g :
    GI g -> (length (sel g) + k <= n)%nat ->
    length (sel (fst (run NoThr k g))) = (length (sel g) + k)%nat /\ GI (fst (run NoThr k g)).
  Proof.
    intros HG Hk. destruct (run NoThr k g) as [g' st] eqn:Er. cbn [fst].
    pose proof (run_nothr_full S score upd cand ycand P P_len P_upd k g g' st HG Hk Er) as ->.
    destruct (run_extends S score upd cand ycand P P_len P_upd NoThr k g g' false HG Er) as (new & Hn & _ & Hl).
    split; [rewrite Hn, app_length, (Hl eq_refl); reflexivity|].
    eapply (run_inv S score upd cand ycand P P_len P_upd); eauto.
  Qed.

  (* a warm-started chain n1 <= n2 <= ... (n_to_select values) *)
  Definition chain (g : gst) (sched : list nat) : gst :=
    fold_left (fun g nj => fst (run NoThr (nj - length (sel g)) g)) sched g.

  Fixpoint nondecreasing_from (lo : nat) (l : list nat) : Prop :=
    match l with [] => True | x :: t => (lo <= x)%nat /\ nondecreasing_from x t end.

  Lemma nondecreasing_last l : forall lo x, nondecreasing_from lo (l ++ [x]) -> (lo <= x)%nat.
  Proof using Type.
    induction l as [|y l IH]; intros lo x H; cbn in H; [apply H|].
    exact (Nat.le_trans _ _ _ (proj1 H) (IH _ _ (proj2 H))).
  Qed.

  (* A chain of warm-started fits equals the single fit UP TO an equivalence E of loop states:
     each fit first applies w (what a warm start does to the object) and then runs the loop; w is
     invisible up to E on states that satisfy the invariant I of the reference run. *)
  Section Upto.
    Variable E : gst -> gst -> Prop.
    Variable I : gst -> Prop.
    Variable w : gst -> gst.
    Hypothesis E_len : forall g h, E g h -> length (sel g) = length (sel h).
    Hypothesis E_warm : forall g h, E g h -> I h -> E (w g) h.
    Hypothesis E_run : forall k g h, E g h -> E (fst (run NoThr k g)) (fst (run NoThr k h)).
    Hypothesis I_run : forall k h, I h -> (length (sel h) + k <= length cand)%nat ->
      I (fst (run NoThr k h)) /\ length (sel (fst (run NoThr k h))) = (length (sel h) + k)%nat.

    Theorem chain_upto sched : forall g h nr,
      E g h -> I h -> nondecreasing_from (length (sel h)) (sched ++ [nr]) -> (nr <= length cand)%nat ->
      E (fold_left (fun g k => fst (run NoThr (k - length (sel g)) (w g))) (sched ++ [nr]) g)
        (fst (run NoThr (nr - length (sel h)) h)).
    Proof using E_len E_warm E_run I_run.
      induction sched as [|n1 sched IH]; intros g h nr Hgh HI Hmono Hn; cbn [app fold_left].
      - rewrite (E_len g h Hgh). apply E_run, E_warm; assumption.
      - destruct Hmono as [Hlo Hrest]. pose proof (nondecreasing_last _ _ _ Hrest) as Hn1.
        destruct (I_run (n1 - length (sel h)) h HI ltac:(lia)) as [HI1 Hlen].
        replace (nr - length (sel h))%nat with ((n1 - length (sel h)) + (nr - n1))%nat by lia.
        rewrite run_add.
        replace (nr - n1)%nat with (nr - length (sel (fst (run NoThr (n1 - length (sel h)) h))))%nat
          by (rewrite Hlen; lia).
        apply IH; [|exact HI1| |exact Hn].
        + rewrite (E_len g h Hgh). apply E_run, E_warm; assumption.
        + rewrite Hlen. now replace (length (sel h) + (n1 - length (sel h)))%nat with n1 by lia.
    Qed.
  End Upto.

  Theorem chain_equals_cold g sched nr :
    GI g -> nondecreasing_from (length (sel g)) (sched ++ [nr]) -> (nr <= n)%nat ->
    chain g (sched ++ [nr]) = fst (run NoThr (nr - length (sel g)) g).
  Proof using P_len P_upd.
    intros HG Hmono Hn.
    apply (chain_upto eq GI (fun g => g)); auto; try congruence.
    intros k h HI Hk. destruct (run_len k h HI Hk). now split.
  Qed.

  (* the first k selections do not depend on how many more are requested *)
  Theorem prefix_independent a b g :
    GI g -> exists new, sel (fst (run NoThr (a + b) g)) = sel (fst (run NoThr a g)) ++ new.
  Proof.
    intros HG. rewrite run_add.
    destruct (run NoThr a g) as [g1 st1] eqn:E1. cbn [fst].
    assert (HG1 : GI g1) by (eapply (run_inv S score upd cand ycand P P_len P_upd); eauto).
    destruct (run NoThr b g1) as [g2 st2] eqn:E2. cbn [fst].
    destruct (run_extends S score upd cand ycand P P_len P_upd NoThr b g1 g2 st2 HG1 E2) as (new & Hn & _).
    exists new. exact Hn.
  Qed.

  (* equal up to first_score_ *)
  Definition same4 (g h : gst) : Prop :=
    sel g = sel h /\ xsel g = xsel h /\ ysel g = ysel h /\ sst g = sst h.

  Lemma post_same4 g h i : same4 g h -> same4 (post g i) (post h i).
  Proof. intros (A & B & Cc & D). unfold same4, Greedy.post; cbn. now rewrite A, B, Cc, D. Qed.

  (* a threshold that is never reached does not change what is selected *)
  Theorem thr_unreached t k : forall g h g',
    same4 g h -> run t k g = (g', false) -> same4 g' (fst (run NoThr k h)).
  Proof.
    induction k as [|k IH]; intros g h g' Hs H; cbn [Greedy.run] in *.
    - injection H as <-. exact Hs.
    - pose proof Hs as (A & B & Cc & D).
      unfold Greedy.best_new in *. rewrite <- A, <- D. cbn [has_thr].
      destruct (amax (mask (sel g) (score (sst g)))) as [[i v]|] eqn:Ea; [|discriminate].
      destruct (has_thr t) eqn:Ht.
      + destruct (below t _ v); [discriminate|].
        refine (IH _ (post h i) _ _ H). apply post_same4. unfold same4; cbn; auto.
      + apply (IH _ (post h i) _ (post_same4 g h i Hs) H).
  Qed.

  (* the state reached by the loop is determined by the sequence of selections: it is the
     fold of the per-selection update over them (so an FPS initialised with that prefix
     starts from the same state) *)
  Theorem run_is_fold k g :
    exists new, fst (run NoThr k g) = fold_left post new g /\
                sel (fold_left post new g) = sel g ++ new.
  Proof.
    revert g; induction k as [|k IH]; intros g; cbn [Greedy.run].
    - exists []. cbn. now rewrite app_nil_r.
    - pose proof (best_new_nothr g) as Hg.
      destruct (best_new NoThr g) as [[i|] g1] eqn:Eb; cbn in Hg; subst g1.
      + destruct (IH (post g i)) as (new & H1 & H2). exists (i :: new). cbn [fold_left].
        split; [exact H1|]. rewrite H2. cbn [Greedy.post sel]. now rewrite <- app_assoc.
      + exists []. cbn. now rewrite app_nil_r.
  Qed.
End HistoryP.
