(* C01: the abstract model Model/Select.v ([sfit], the one all the loop theorems of
   C01/C02/C06/C07 are about) is an abstraction of the buffer-level model Model/SelBuf.v
   ([bfit]): whenever the buffer-level fit succeeds, the abstract fit succeeds with the same
   stop flag, its selection sequence is the one underlying the buffers, and what the buffers
   report is [reported_sel] of it.  Both loops take their turn through the same decision
   function [pick]. *)
From Verif Require Import ListX Greedy Select SelectP C01Thm SelBuf SelBufP.

Definition bcfg_of (c : cfg) : bcfg :=
  mk_bcfg (c_nts c) (tst_of_thr (c_thr c)) (c_full c) (c_warm c).

Definition abs_rel (g : gst stream) (b : bst) : Prop :=
  sel g = b_idx b /\ first g = b_first b.
Definition prev_rel (pg : option (gst stream)) (pb : option bst) : Prop :=
  match pg, pb with
  | None, None => True
  | Some g, Some b => abs_rel g b
  | _, _ => False
  end.

Section Refine.
  Variable cand : list (list Z).
  Variable ycand : option (list (list Z)).
  Notation n := (length cand).
  Notation s_run := (s_run cand ycand).

  (* stated on an explicit record: for NoThr the loop continues from g itself, which equals
     [mk_gst … (first g)] only up to eta *)
  Lemma s_run_pick t fuel s xs ys sc rest f :
    s_run t (S fuel) (mk_gst s xs ys (sc :: rest) f) =
    match pick (tst_of_thr t) f s sc with
    | None => (mk_gst s xs ys (sc :: rest) f, true)
    | Some (te, f') =>
        if te_kept te
        then s_run t fuel (post stream s_upd cand ycand (mk_gst s xs ys (sc :: rest) f') (te_idx te))
        else (mk_gst s xs ys (sc :: rest) f', true)
    end.
  Proof.
    unfold Select.s_run, pick. cbn [run]. unfold best_new. cbn [sel sst first s_score].
    destruct (amax (mask s sc)) as [[i v]|]; [|reflexivity].
    destruct t; cbn; try reflexivity; now destruct (_ <? _).
  Qed.

  Definition run_rel (r : gst stream * bool) (s : list nat) (bf : bst) (st : bool)
             (tr : list tentry) : Prop :=
    snd r = st /\ sel (fst r) = s ++ kept_idx tr /\ first (fst r) = b_first bf /\
    (if st then tl (sst (fst r)) else sst (fst r)) = b_str bf.

  Lemma b_run_of_refines t K : forall fuel j s f str xs ys,
    (length s + fuel = K)%nat ->
    forall bf st tr, b_run cand ycand (tst_of_thr t) j fuel (b_of cand ycand K s f str) = Ok (bf, st, tr) ->
    run_rel (s_run t fuel (mk_gst s xs ys str f)) s bf st tr.
  Proof.
    induction fuel as [|fuel IH]; intros j s f str xs ys Hk bf st tr H; cbn [SelBuf.b_run] in H.
    - injection H as <- <- <-. unfold run_rel, kept_idx. cbn. now rewrite app_nil_r.
    - destruct str as [|sc rest]; [discriminate|].
      destruct (Nat.eqb_spec (length sc) n) as [Hl|Hl];
        [|unfold SelBuf.b_best in H; cbn in H; now destruct (Nat.eqb_spec (length sc) n)].
      rewrite (b_best_of _ _ _ _ _ _ _ _ Hl) in H. rewrite s_run_pick.
      destruct (pick (tst_of_thr t) f s sc) as [[te f']|] eqn:Ep; [|discriminate].
      apply pick_spec in Ep as (Hi & _). rewrite Hl in Hi.
      destruct (te_kept te) eqn:Htk.
      + rewrite b_post_of in H by (auto; lia).
        destruct (b_run _ _ _ (S j) fuel _) as [[[bf' st'] tr']|e] eqn:Er; [|discriminate].
        injection H as <- <- <-.
        eapply IH in Er; [|rewrite app_length; cbn; lia].
        unfold run_rel, kept_idx in *. cbn [filter]. rewrite Htk. cbn [map].
        rewrite <- app_assoc in Er. exact Er.
      + unfold b_truncate in H. destruct (_ <? _)%nat; [discriminate|]. injection H as <- <- <-.
        unfold run_rel, kept_idx. cbn [filter]. rewrite Htk. cbn. now rewrite app_nil_r.
  Qed.

  (* [b_run_of_refines] for a buffer state given by the predicate [LInv] *)
  Lemma b_run_refines t K : forall fuel j b s (g : gst stream),
    LInv cand ycand K b s -> sel g = s -> sst g = b_str b -> first g = b_first b ->
    (length s + fuel = K)%nat ->
    forall bf st tr, b_run cand ycand (tst_of_thr t) j fuel b = Ok (bf, st, tr) ->
    run_rel (s_run t fuel g) s bf st tr.
  Proof.
    intros fuel j b s [s' xs ys str f] HI. rewrite (LInv_of _ _ K b s HI). cbn. intros -> -> ->.
    apply b_run_of_refines.
  Qed.

  (* both fits reject, or both reach their loops in related states *)
  Lemma fits_start pg pb c inits str k :
    prev_rel pg pb ->
    (c_warm c = true -> bprev_ok cand ycand pb) ->
    (c_warm c = false -> NoDup inits /\ in_rng n inits) ->
    resolve_n n (c_nts c) = Some k ->
    (length (sel_before pb (bcfg_of c) inits) <= k)%nat ->
    let s0 := sel_before pb (bcfg_of c) inits in
    let f0 := first_before pb (bcfg_of c) in
    bfit cand ycand pb (bcfg_of c) inits str = BRejected \/
    n_before pg c inits = length s0 /\
    bfit cand ycand pb (bcfg_of c) inits str =
      match b_run cand ycand (tst_of_thr (c_thr c)) O (k - length s0) (b_of cand ycand k s0 f0 str) with
      | Err e => BRaised e | Ok (b, st, tr) => BFitted b st tr end /\
    exists xs ys,
      sfit cand ycand pg c inits str =
      let '(g', st) := s_pop (s_run (c_thr c) (k - length s0) (mk_gst s0 xs ys str f0)) in Fitted g' st.
  Proof.
    intros Hrel Hp Hin Hk Hle. unfold sfit, SelBuf.bfit, sel_before, first_before, n_before, bcfg_of in *.
    cbn [bc_full bc_tst bc_nts bc_warm] in *.
    replace (has_tst (tst_of_thr (c_thr c))) with (has_thr (c_thr c)) by (now destruct (c_thr c)).
    destruct (c_full c && has_thr (c_thr c)); [now left|]. rewrite Hk.
    destruct (c_warm c).
    - destruct pb as [b0|]; [|now left]. destruct pg as [[s xs ys str0 f]|]; [|contradiction].
      destruct Hrel as [Hs Hf]. cbn in Hs, Hf. subst s f. cbn [sel].
      destruct (Hp eq_refl) as (_ & _ & Hn0 & _). rewrite <- Hn0.
      destruct (Nat.eqb (b_n b0) O); [now left|right]. split; [reflexivity|].
      rewrite b_continue_of by (try apply Hp; auto; lia). split; [now rewrite Hn0|]. now exists xs, ys.
    - right. destruct (Hin eq_refl) as (_ & Hr). split; [reflexivity|].
      rewrite b_init_of, b_inits_of by (auto; cbn; lia). split; [reflexivity|].
      destruct (init_state cand ycand inits (mk_gst [] [] [] (repeat [] (length inits) ++ str) None))
        as (A & _ & _ & D & E). cbn in A, D, E.
      rewrite skipn_app, skipn_all2, repeat_length, Nat.sub_diag in D by (rewrite repeat_length; lia).
      destruct (fold_left _ inits _) as [s0 xs ys str0 f0]. cbn in *. subst. now exists xs, ys.
  Qed.

  Theorem bfit_refines_sfit pg pb c inits str k b st tr :
    prev_rel pg pb ->
    (c_warm c = true -> bprev_ok cand ycand pb) ->
    (c_warm c = false -> NoDup inits /\ in_rng n inits) ->
    resolve_n n (c_nts c) = Some k ->
    (length (sel_before pb (bcfg_of c) inits) <= k)%nat ->
    bfit cand ycand pb (bcfg_of c) inits str = BFitted b st tr ->
    exists g, sfit cand ycand pg c inits str = Fitted g st /\
              sel g = sel_before pb (bcfg_of c) inits ++ kept_idx tr /\
              reported_sel g st (n_before pg c inits) = b_idx b /\
              first g = b_first b /\ b_n b = length (sel g) /\ sst g = b_str b.
  Proof.
    intros Hrel Hp Hin Hk Hle Hfit.
    pose proof (bfit_run cand ycand pb (bcfg_of c) inits str k Hp Hin Hk Hle) as Hpost.
    rewrite Hfit in Hpost. destruct Hpost as (_ & _ & _ & _ & A5 & _ & A7 & _).
    destruct (fits_start pg pb c inits str k Hrel Hp Hin Hk Hle) as [E|(En & E & xs & ys & Es)];
      rewrite E in Hfit; [discriminate|]. rewrite Es, En. clear E Es En.
    destruct (b_run _ _ _ _ _ _) as [[[b' st'] tr']|e] eqn:Er; [|discriminate]. injection Hfit as -> -> ->.
    apply (b_run_of_refines _ _ _ _ _ _ _ xs ys) in Er; [|lia].
    destruct (s_run _ _ _) as [g' st'']. destruct Er as (Hst & Hsel & Hfirst & Hstr). cbn [fst snd] in *. subst st''.
    unfold s_pop, reported_sel. eexists. split; [reflexivity|].
    rewrite A7. destruct st; cbn; rewrite Hsel; repeat split; auto.
    now rewrite app_length, Nat.add_comm, Nat.add_sub.
  Qed.
End Refine.
