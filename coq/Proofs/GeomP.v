(* Vector geometry over Z used by the Voronoi pruning rule: Cauchy-Schwarz and the
   squared-form triangle inequality  |b-a|^2 >= 4|c-a|^2  ->  |c-b|^2 >= |c-a|^2. *)
From Verif Require Import ListX ListXP.

Definition lin_comb (p q : Z) (u v : list Z) : list Z := map2 (fun a b => q * a - p * b) u v.

Lemma sqn_lin p q u v :
  length u = length v ->
  sqn (lin_comb p q u v) = q * q * sqn u - 2 * p * q * dot u v + p * p * sqn v.
Proof.
  revert v; induction u as [|a u IH]; intros [|b v] H; try discriminate.
  - unfold lin_comb, sqn, dot; cbn. lia.
  - injection H as H. specialize (IH v H). unfold lin_comb in *. cbn [map2].
    rewrite !sqn_cons, dot_cons, IH. lia.
Qed.

Lemma sqn_zero_dot u v : length u = length v -> sqn v = 0 -> dot u v = 0.
Proof.
  revert v; induction u as [|a u IH]; intros [|b v] H; try discriminate; [reflexivity|].
  injection H as H. rewrite sqn_cons, dot_cons. intros Hz.
  pose proof (sqn_nonneg v) as Hv. pose proof (Z.square_nonneg b) as Hb.
  assert (Hb0 : b * b = 0) by lia. assert (Hv0 : sqn v = 0) by lia.
  rewrite (IH v H Hv0). assert (b = 0) by nia. subst b. lia.
Qed.

Theorem cauchy_schwarz u v :
  length u = length v -> dot u v * dot u v <= sqn u * sqn v.
Proof.
  intros H. pose proof (sqn_nonneg (lin_comb (dot u v) (sqn v) u v)) as Hpos.
  rewrite (sqn_lin _ _ _ _ H) in Hpos.
  pose proof (sqn_nonneg v) as Hv. pose proof (sqn_nonneg u) as Hu.
  destruct (Z.eq_dec (sqn v) 0) as [E|E].
  - rewrite (sqn_zero_dot u v H E), E. lia.
  - assert (Hq : 0 < sqn v) by lia.
    set (p := dot u v) in *. set (q := sqn v) in *. set (U := sqn u) in *.
    assert (Hfac : 0 <= q * (q * U - p * p)) by (replace (q * (q * U - p * p)) with
      (q * q * U - 2 * p * q * p + p * p * q) by lia; exact Hpos).
    assert (0 <= q * U - p * p) by (apply Z.mul_nonneg_cancel_l with (n := q); assumption).
    lia.
Qed.

Lemma vsub_length u v : length u = length v -> length (vsub u v) = length u.
Proof. intros H. unfold vsub. rewrite map2_length, H. apply Nat.min_id. Qed.

(* |c-b|^2 = |c-a|^2 + |b-a|^2 - 2 <c-a, b-a> *)
Lemma sqdist_via a b c :
  length a = length b -> length a = length c ->
  sqdist c b = sqdist c a + sqdist b a - 2 * dot (vsub c a) (vsub b a).
Proof.
  revert b c; induction a as [|x a IH]; intros [|y b] [|z c] H1 H2; try discriminate.
  - reflexivity.
  - injection H1 as H1. injection H2 as H2. specialize (IH b c H1 H2).
    unfold vsub in *. cbn [map2]. rewrite !sqdist_cons, dot_cons, IH. lia.
Qed.

(* the triangle-inequality pruning rule, in squared form *)
Theorem prune_sound a b c :
  length a = length b -> length a = length c ->
  4 * sqdist c a <= sqdist b a -> sqdist c a <= sqdist c b.
Proof.
  intros H1 H2 Hq. rewrite (sqdist_via a b c H1 H2).
  set (x := vsub c a). set (y := vsub b a).
  assert (Hlen : length x = length y).
  { unfold x, y. rewrite !vsub_length; congruence. }
  pose proof (cauchy_schwarz x y Hlen) as Hcs.
  change (sqdist c a) with (sqn x) in *. change (sqdist b a) with (sqn y) in *.
  pose proof (sqn_nonneg x) as Hx. pose proof (sqn_nonneg y) as Hy.
  set (p := dot x y) in *. set (X := sqn x) in *. set (Y := sqn y) in *.
  (* p^2 <= X*Y <= Y^2/4, hence 2p <= Y *)
  assert (H4 : 4 * (p * p) <= Y * Y) by nia.
  assert (2 * p <= Y) by nia. lia.
Qed.
