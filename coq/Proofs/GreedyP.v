(* Theorems about the generic greedy loop (Model/Greedy.v), for every scorer. *)
From Verif Require Import ListX Greedy ListXP.
From Coq Require Import Sorting.Permutation Sorting.Sorted.

Section GreedyP.
  Variable S : Type.
  Variable score : S -> list Z.
  Variable upd : S -> nat -> S.
  Variable cand : list (list Z).
  Variable ycand : option (list (list Z)).
  Let n := length cand.

  (* scorer invariant: scores have one entry per candidate, preserved by updates *)
  Variable P : S -> Prop.
  Hypothesis P_len : forall s, P s -> length (score s) = n.
  Hypothesis P_upd : forall s i, P s -> (i < n)%nat -> P (upd s i).

  Notation gst := (gst S).
  Notation post := (post S upd cand ycand).
  Notation best_new := (best_new S score).
  Notation run := (run S score upd cand ycand).

  Definition GInv (g : gst) : Prop :=
    NoDup (sel g) /\ Forall (fun i => (i < n)%nat) (sel g) /\
    xsel g = map (fun i => nth i cand []) (sel g) /\
    (forall y, ycand = Some y -> ysel g = map (fun i => nth i y []) (sel g)) /\
    P (sst g).

  Lemma GInv_P g : GInv g -> P (sst g).
  Proof using Type. intros H. apply H. Qed.

  (* what one successful call of _get_best_new_selection returns *)
  Definition is_best (g : gst) (i : nat) : Prop :=
    (i < n)%nat /\ ~ In i (sel g) /\
    (forall j, (j < n)%nat -> ~ In j (sel g) -> nth j (score (sst g)) 0 <= nth i (score (sst g)) 0) /\
    (forall j, (j < i)%nat -> ~ In j (sel g) -> nth j (score (sst g)) 0 < nth i (score (sst g)) 0).

  (* best_new only ever touches first_score_ *)
  Lemma best_new_same t g o g' :
    best_new t g = (o, g') ->
    sel g' = sel g /\ xsel g' = xsel g /\ ysel g' = ysel g /\ sst g' = sst g.
  Proof using Type.
    unfold Greedy.best_new. destruct (amax _) as [[i v]|]; [|intros [= _ <-]; auto].
    destruct (has_thr t); [destruct (below _ _ _)|]; intros [= _ <-]; auto.
  Qed.

  Lemma best_new_none t g g' :
    best_new t g = (None, g') ->
    sel g' = sel g /\ xsel g' = xsel g /\ ysel g' = ysel g /\ sst g' = sst g.
  Proof using Type. apply best_new_same. Qed.

  Lemma amax_is_best g i v :
    P (sst g) -> amax (mask (sel g) (score (sst g))) = Some (i, v) ->
    is_best g i /\ nth i (score (sst g)) 0 = v.
  Proof using P_len.
    intros HP Ea. apply amax_mask_spec in Ea as (Hi & Hns & Hv & Hmax & Hfirst).
    rewrite (P_len _ HP) in Hi, Hmax. unfold is_best. rewrite Hv. auto.
  Qed.

  Lemma best_new_some t g i g' :
    P (sst g) -> best_new t g = (Some i, g') ->
    is_best g i /\ sel g' = sel g /\ xsel g' = xsel g /\ ysel g' = ysel g /\ sst g' = sst g /\
    (has_thr t = true ->
       exists f, first g' = Some f /\ (first g = None -> f = nth i (score (sst g)) 0) /\
                 (forall f0, first g = Some f0 -> f = f0) /\
                 below t f (nth i (score (sst g)) 0) = false) /\
    (has_thr t = false -> g' = g).
  Proof using P_len.
    intros HP H. destruct (best_new_same _ _ _ _ H) as (A & B & C & D).
    revert H. unfold Greedy.best_new.
    destruct (amax _) as [[i0 v]|] eqn:Ea; [|discriminate].
    destruct (amax_is_best _ _ _ HP Ea) as [Hbest <-].
    destruct (has_thr t); [destruct (below _ _ _) eqn:Hb|]; intros [= <- <-].
    - do 5 (split; [assumption|]). split; [intros _|discriminate]. eexists. split; [reflexivity|].
      split; [intros ->; reflexivity|]. split; [intros f0 ->; reflexivity|exact Hb].
    - do 5 (split; [assumption|]). split; [discriminate|reflexivity].
  Qed.

  Lemma GInv_same g g' :
    GInv g -> sel g' = sel g -> xsel g' = xsel g -> ysel g' = ysel g -> sst g' = sst g -> GInv g'.
  Proof using Type. unfold GInv. intros H -> -> -> ->. exact H. Qed.

  Lemma post_inv g i : GInv g -> (i < n)%nat -> ~ In i (sel g) -> GInv (post g i).
  Proof using P_upd.
    intros (Hnd & Hr & Hx & Hy & HP) Hi Hni. unfold GInv, Greedy.post; cbn.
    split; [now apply NoDup_snoc|]. split; [apply Forall_app; auto|].
    split; [now rewrite map_app, Hx|]. split; [|now apply P_upd].
    intros y Hyc. now rewrite Hyc, map_app, (Hy y Hyc).
  Qed.

  (* a stop while candidates remain is a threshold stop on the best remaining score
     (pigeonhole: fewer than n selected, so the masked arg-max exists) *)
  Lemma best_new_stop t g g' :
    GInv g -> (length (sel g) < n)%nat -> best_new t g = (None, g') ->
    has_thr t = true /\
    exists i f, is_best g' i /\ first g' = Some f /\ below t f (nth i (score (sst g')) 0) = true.
  Proof using P_len.
    intros (_ & _ & _ & _ & HP) Hlt. unfold Greedy.best_new.
    destruct (amax _) as [[i v]|] eqn:Ea.
    - destruct (amax_is_best _ _ _ HP Ea) as [Hb <-].
      destruct (has_thr t); [|discriminate]. destruct (below _ _ _) eqn:Hb'; intros [= <-].
      split; [reflexivity|]. exists i. eexists. split; [exact Hb|]. split; [reflexivity|exact Hb'].
    - exfalso. destruct (fresh_index n (sel g) Hlt) as (j & Hj & Hnj).
      eapply amax_mask_some; [|exact Hnj|exact Ea]. now rewrite (P_len _ HP).
  Qed.

  (* one turn of the loop: either a best new item i is appended (by [post], to a state g1 that
     differs from g in first_score_ only) and the loop goes on, or it stops *)
  Lemma run_S t k g g' st :
    GInv g -> run t (Datatypes.S k) g = (g', st) ->
    (exists i g1, sel g1 = sel g /\ sst g1 = sst g /\ is_best g i /\
                  GInv (post g1 i) /\ run t k (post g1 i) = (g', st)) \/
    (sel g' = sel g /\ sst g' = sst g /\ GInv g' /\ st = true).
  Proof using P_len P_upd.
    intros HI H. cbn [Greedy.run] in H.
    destruct (best_new t g) as [[i|] g1] eqn:Eb.
    - left. destruct (best_new_some _ _ _ _ (GInv_P _ HI) Eb) as (Hb & Hs & Hx & Hy & Hss & _).
      exists i, g1. do 3 (split; [assumption|]). split; [|exact H].
      apply post_inv; [eapply GInv_same; eauto|apply Hb|rewrite Hs; apply Hb].
    - right. injection H as <- <-. destruct (best_new_none _ _ _ Eb) as (Hs & Hx & Hy & Hss).
      do 2 (split; [assumption|]). split; [eapply GInv_same; eauto|reflexivity].
  Qed.

  (* induction over the loop with the invariant carried along: the three ways a run of k turns
     can go, with what one turn establishes handed to each case *)
  Theorem run_elim t (Q : nat -> gst -> gst -> bool -> Prop) :
    (forall g, GInv g -> Q O g g false) ->
    (forall k g g', GInv g -> best_new t g = (None, g') -> GInv g' -> Q (Datatypes.S k) g g' true) ->
    (forall k g i g1 g' st,
       GInv g -> best_new t g = (Some i, g1) -> is_best g i -> sel g1 = sel g -> sst g1 = sst g ->
       GInv g1 -> GInv (post g1 i) ->
       run t k (post g1 i) = (g', st) -> Q k (post g1 i) g' st -> Q (Datatypes.S k) g g' st) ->
    forall k g g' st, GInv g -> run t k g = (g', st) -> Q k g g' st.
  Proof using P_len P_upd.
    intros H0 Hstop Hstep. induction k as [|k IH]; intros g g' st HI H; cbn in H.
    - injection H as <- <-. now apply H0.
    - destruct (best_new t g) as [[i|] g1] eqn:Eb.
      + destruct (best_new_some _ _ _ _ (GInv_P _ HI) Eb) as (Hb & A & B & C & D & _).
        assert (HI1 : GInv g1) by (eapply GInv_same; eauto).
        assert (HI2 : GInv (post g1 i)).
        { apply post_inv; [exact HI1|apply Hb|rewrite A; apply Hb]. }
        eapply Hstep; eauto.
      + injection H as <- <-. destruct (best_new_same _ _ _ _ Eb) as (A & B & C & D).
        apply Hstop; [exact HI|exact Eb|eapply GInv_same; eauto].
  Qed.

  Theorem run_inv t k g g' st : GInv g -> run t k g = (g', st) -> GInv g'.
  Proof using P_len P_upd. apply (run_elim t (fun _ _ g' _ => GInv g')); auto. Qed.

  Theorem run_extends t k g g' st :
    GInv g -> run t k g = (g', st) ->
    exists new, sel g' = sel g ++ new /\ (length new <= k)%nat /\
                (st = false -> length new = k).
  Proof using P_len P_upd.
    apply (run_elim t (fun k g g' st => exists new, sel g' = sel g ++ new /\ (length new <= k)%nat /\
                                         (st = false -> length new = k))).
    - intros g0 _. exists []. now rewrite app_nil_r.
    - intros k0 g0 g1 _ Eb _. exists []. rewrite app_nil_r.
      split; [apply (best_new_same _ _ _ _ Eb)|]. split; [cbn; lia|discriminate].
    - intros k0 g0 i g1 g2 st0 _ _ _ A _ _ _ _ (new & Hn & Hl & Hst). exists (i :: new).
      cbn [Greedy.post sel] in Hn. rewrite Hn, A, <- app_assoc. cbn.
      split; [reflexivity|]. split; [lia|]. intros E. now rewrite (Hst E).
  Qed.

  Theorem run_nothr_full k g g' st :
    GInv g -> (length (sel g) + k <= n)%nat -> run NoThr k g = (g', st) -> st = false.
  Proof using P_len P_upd.
    intros HI Hk H. revert Hk.
    apply (run_elim NoThr (fun k g _ st => (length (sel g) + k <= n)%nat -> st = false) ) with (5 := H); auto.
    - intros k0 g0 g1 HI0 Eb _ Hk. destruct (best_new_stop NoThr g0 g1 HI0 ltac:(lia) Eb) as [? _]. discriminate.
    - intros k0 g0 i g1 g2 st0 _ _ _ A _ _ _ _ IH Hk. apply IH. cbn. rewrite A, app_length. cbn. lia.
  Qed.

  Theorem run_stop_below t k g g' :
    GInv g -> (length (sel g) + k <= n)%nat -> run t k g = (g', true) ->
    exists i f, is_best g' i /\ first g' = Some f /\ below t f (nth i (score (sst g')) 0) = true.
  Proof using P_len P_upd.
    intros HI Hk H.
    refine (run_elim t (fun k g g' st => (length (sel g) + k <= n)%nat -> st = true ->
      exists i f, is_best g' i /\ first g' = Some f /\ below t f (nth i (score (sst g')) 0) = true)
      _ _ _ k g g' true HI H Hk eq_refl).
    - discriminate.
    - intros k0 g0 g1 HI0 Eb _ Hk0 _. apply (best_new_stop t g0 g1 HI0 ltac:(lia) Eb).
    - intros k0 g0 i g1 g2 st0 _ _ _ A _ _ _ _ IH Hk0. apply IH. cbn. rewrite A, app_length. cbn. lia.
  Qed.

  Theorem run_ind (Q : gst -> Prop) t k g g' st :
    (forall a b, Q a -> sel b = sel a -> xsel b = xsel a -> ysel b = ysel a -> sst b = sst a -> Q b) ->
    (forall a i, GInv a -> Q a -> is_best a i -> Q (post a i)) ->
    GInv g -> Q g -> run t k g = (g', st) -> Q g'.
  Proof using P_len P_upd.
    intros Hsame Hpost HI HQ H. revert HQ.
    apply (run_elim t (fun _ g g' _ => Q g -> Q g')) with (5 := H); auto.
    - intros _ g0 g1 _ Eb _ HQ. destruct (best_new_same _ _ _ _ Eb) as (A & B & C & D). eapply Hsame; eauto.
    - intros _ g0 i g1 g2 _ _ Eb Hb A D HI1 _ _ IH HQ.
      destruct (best_new_same _ _ _ _ Eb) as (_ & B & C & _).
      apply IH, Hpost; [exact HI1|eapply Hsame; eauto|]. unfold is_best in *. now rewrite A, D.
  Qed.

  Fixpoint best_seq (g : gst) (new : list nat) : Prop :=
    match new with
    | [] => True
    | i :: rest => exists g1, sel g1 = sel g /\ sst g1 = sst g /\ xsel g1 = xsel g /\ ysel g1 = ysel g /\
                              is_best g i /\ best_seq (post g1 i) rest
    end.

  Theorem run_best_seq t k g g' st :
    GInv g -> run t k g = (g', st) -> exists new, sel g' = sel g ++ new /\ best_seq g new.
  Proof using P_len P_upd.
    apply (run_elim t (fun _ g g' _ => exists new, sel g' = sel g ++ new /\ best_seq g new)).
    - intros g0 _. exists []. now rewrite app_nil_r.
    - intros _ g0 g1 _ Eb _. exists []. rewrite app_nil_r. split; [apply (best_new_same _ _ _ _ Eb)|exact I].
    - intros _ g0 i g1 g2 _ _ Eb Hb A D _ _ _ (new & Hn & Hseq). exists (i :: new).
      cbn [Greedy.post sel] in Hn. rewrite Hn, A, <- app_assoc. split; [reflexivity|].
      destruct (best_new_same _ _ _ _ Eb) as (_ & B & C & _). exists g1. auto 10.
  Qed.

  (* the trace of the loop: (index, its score, first_score_) for every step taken *)
  Fixpoint run_tr (t : thr) (k : nat) (g : gst) : list (nat * Z * Z) :=
    match k with
    | O => []
    | Datatypes.S k' =>
        match best_new t g with
        | (None, _) => []
        | (Some i, g1) =>
            (i, nth i (score (sst g)) 0, match first g1 with Some f => f | None => 0 end)
              :: run_tr t k' (post g1 i)
        end
    end.

  Theorem run_tr_sel t k g g' st :
    run t k g = (g', st) -> sel g' = sel g ++ map (fun x => fst (fst x)) (run_tr t k g).
  Proof using Type.
    revert g; induction k as [|k IH]; intros g H; cbn in *.
    - injection H as <- _. now rewrite app_nil_r.
    - destruct (Greedy.best_new S score t g) as [[i|] g1] eqn:Eb;
        destruct (best_new_same _ _ _ _ Eb) as (A & _).
      + rewrite (IH _ H). cbn. now rewrite A, <- app_assoc.
      + injection H as <- _. now rewrite A, app_nil_r.
  Qed.

  Theorem run_tr_above t k g :
    GInv g -> has_thr t = true ->
    Forall (fun x => below t (snd x) (snd (fst x)) = false) (run_tr t k g).
  Proof using P_len P_upd.
    intros HI Ht. destruct (run t k g) as [g' st] eqn:H.
    apply (run_elim t (fun k g _ _ => Forall (fun x => below t (snd x) (snd (fst x)) = false) (run_tr t k g)))
      with (4 := HI) (5 := H).
    - constructor.
    - intros k0 g0 g1 _ Eb _. cbn. rewrite Eb. constructor.
    - intros k0 g0 i g1 g2 st0 HI0 Eb _ _ _ _ _ _ IH. cbn. rewrite Eb. constructor; [|exact IH].
      destruct (best_new_some _ _ _ _ (GInv_P _ HI0) Eb) as (_ & _ & _ & _ & _ & Hthr & _).
      destruct (Hthr Ht) as (f & Hf & _ & _ & Hb). cbn. now rewrite Hf.
  Qed.

  Lemma support_spec s i : (i < n)%nat -> nth i (support n s) false = true <-> In i s.
  Proof.
    intros Hi. unfold support.
    rewrite nth_indep with (d' := memb n s) by (rewrite map_length, seq_length; exact Hi).
    rewrite (map_nth (fun i => memb i s)), seq_nth by exact Hi. cbn. apply memb_In.
  Qed.

  Lemma support_length s : length (support n s) = n.
  Proof. unfold support. now rewrite map_length, seq_length. Qed.

  Lemma support_indices_spec s :
    Permutation s (support_indices s) /\ Sorted le (support_indices s).
  Proof. split; [apply sort_nat_perm|apply sort_nat_sorted]. Qed.
End GreedyP.
