(* The OrthogonalRegression state machine (Model/OrthRegHist.v), for EVERY choice of the numeric
   routines: facts about one call, then about every history; the layer-D instance at the end.
   Stdlib style. *)
From Coq Require Import List Bool Arith Lia.
From Verif Require Import OrthRegHist.
Import ListNotations.

Lemma lupd_length {A} (l : list A) i a : length (lupd l i a) = length l.
Proof. revert i; induction l as [|x l IH]; intros [|i]; cbn; auto. Qed.

Lemma nth_error_lupd_eq {A} (l : list A) i a x :
  nth_error l i = Some x -> nth_error (lupd l i a) i = Some a.
Proof. revert i; induction l as [|z l IH]; intros [|i]; cbn; try discriminate; auto. Qed.

Lemma nth_error_lupd_neq {A} (l : list A) i j a :
  i <> j -> nth_error (lupd l i a) j = nth_error l j.
Proof.
  revert i j; induction l as [|z l IH]; intros [|i] [|j] Hne; cbn; auto; try congruence.
Qed.

Lemma lupd_same {A} (l : list A) i x : nth_error l i = Some x -> lupd l i x = l.
Proof.
  revert i; induction l as [|z l IH]; intros [|i]; cbn; try discriminate.
  - now intros [= ->].
  - intros Hn; f_equal; auto.
Qed.

Lemma map_lupd_same {A B} (f : A -> B) (l : list A) i a x :
  nth_error l i = Some x -> f a = f x -> map f (lupd l i a) = map f l.
Proof.
  revert i; induction l as [|z l IH]; intros [|i]; cbn; try discriminate.
  - intros [= ->] Hf; now rewrite Hf.
  - intros Hn Hf; f_equal; eauto.
Qed.

Section MachineP.
  Variables (M P H E R : Type).
  Variable fit_check : bool -> M -> M -> option E.
  Variable est_check : M -> M -> option E.
  Variable lin_fit : option H -> M -> M -> P.
  Variable proj_solve : P -> M -> M -> P.
  Variable pad_solve : M -> M -> P.
  Variable pad_q : M -> M -> nat.
  Variable predict_of : bool -> option nat -> option P -> M -> R.

  Local Notation est := (est P H).
  Local Notation obj := (obj P).
  Local Notation world := (world P H).
  Local Notation op := (op M).
  Local Notation step := (step M P H E R fit_check est_check lin_fit proj_solve pad_solve pad_q predict_of).
  Local Notation run := (run M P H E R fit_check est_check lin_fit proj_solve pad_solve pad_q predict_of).
  Local Notation fit_obj := (fit_obj M P H E R fit_check lin_fit proj_solve pad_solve pad_q).
  Local Notation fit_value := (fit_value M P H lin_fit proj_solve pad_solve).
  Local Notation resolve_lin := (resolve_lin P H).
  Local Notation reset := (reset P H).
  Local Notation hypers := (fun w : world => map (e_hyper P H) (w_heap P H w)).
  Local Notation prov := (prov M P H E fit_check lin_fit proj_solve pad_solve).

  (* one fit, both modes at once: [lin_of heap ob] are the hyper-parameters the fit uses
     (None inside = LinearRegression() or padded mode), None outside = dangling reference *)
  Definition lin_of (heap : list est) (ob : obj) : option (option H) :=
    if o_proj P ob then resolve_lin heap (o_lin P ob) else Some None.

  Lemma fit_objE (heap : list est) (ob : obj) (X y : M) :
    fit_obj heap ob X y =
    match fit_check (o_proj P ob) X y, lin_of heap ob with
    | Some e, _ => (ob, OutErr E R e)
    | None, None => (ob, OutBadRef E R)
    | None, Some hy =>
        (mk_obj P (o_proj P ob) (o_lin P ob) (Some (fit_value (o_proj P ob) hy X y))
                (if o_proj P ob then o_maxc P ob else Some (pad_q X y)), OutOk E R)
    end.
  Proof.
    unfold OrthRegHist.fit_obj, lin_of.
    destruct (fit_check (o_proj P ob) X y); auto. now destruct (o_proj P ob).
  Qed.

  Lemma resolve_lin_hypers (h1 h2 : list est) (l : option nat) :
    map (e_hyper P H) h1 = map (e_hyper P H) h2 -> resolve_lin h1 l = resolve_lin h2 l.
  Proof.
    intros Hm; destruct l as [i|]; cbn; auto.
    assert (Hn : nth_error (map (e_hyper P H) h1) i = nth_error (map (e_hyper P H) h2) i) by now rewrite Hm.
    rewrite !nth_error_map in Hn.
    destruct (nth_error h1 i), (nth_error h2 i); cbn in *; congruence.
  Qed.

  Lemma lin_of_hypers (h1 h2 : list est) (ob : obj) :
    map (e_hyper P H) h1 = map (e_hyper P H) h2 -> lin_of h1 ob = lin_of h2 ob.
  Proof. intros Hm; unfold lin_of; now rewrite (resolve_lin_hypers h1 h2). Qed.

  Lemma lin_of_In (heap : list est) (ob : obj) (k : H) :
    lin_of heap ob = Some (Some k) -> In k (map (e_hyper P H) heap).
  Proof.
    unfold lin_of, OrthRegHist.resolve_lin.
    destruct (o_proj P ob); [|discriminate]. destruct (o_lin P ob) as [i|]; [|discriminate].
    destruct (nth_error heap i) as [es|] eqn:Hi; cbn; [|discriminate].
    intros [= <-]. apply in_map. eapply nth_error_In; eauto.
  Qed.

  Lemma step_hypers (a : op) (w : world) : hypers (fst (step a w)) = hypers w.
  Proof.
    destruct a as [o X y|o b|o l|e X y|o Xn]; cbn;
      try (destruct (nth_error (w_objs P H w) o) as [ob|]; cbn; auto;
           try destruct (fit_obj (w_heap P H w) ob X y); auto).
    destruct (nth_error (w_heap P H w) e) as [es|] eqn:He; cbn; auto.
    destruct (est_check X y); cbn; auto.
    now apply map_lupd_same with (x := es).
  Qed.

  Lemma run_hypers (h : list op) (w : world) : hypers (run h w) = hypers w.
  Proof. revert w; induction h as [|a h IH]; intros w; cbn; auto. now rewrite IH, step_hypers. Qed.

  Lemma run_heap_frame (h : list op) (w : world) :
    forallb (fun a => negb (is_user_fit M a)) h = true -> w_heap P H (run h w) = w_heap P H w.
  Proof.
    revert w; induction h as [|a h IH]; intros w; cbn; auto.
    intros Hh; apply andb_true_iff in Hh; destruct Hh as [Ha Hh].
    rewrite IH by assumption.
    destruct a as [o X y|o b|o l|e X y|o Xn]; cbn in *; try discriminate;
      destruct (nth_error (w_objs P H w) o) as [ob|]; cbn; auto.
    destruct (fit_obj (w_heap P H w) ob X y); auto.
  Qed.

  Lemma fit_fresh (w : world) (o : nat) (X y : M) :
    let r1 := step (OFit M o X y) w in
    let r2 := step (OFit M o X y) (reset w) in
    snd r1 = snd r2
    /\ (snd r1 = OutOk E R ->
        option_map (fitted_view P) (nth_error (w_objs P H (fst r1)) o)
        = option_map (fitted_view P) (nth_error (w_objs P H (fst r2)) o)).
  Proof.
    cbn. rewrite nth_error_map.
    destruct (nth_error (w_objs P H w) o) as [ob|] eqn:Ho; cbn; [|split; [auto | discriminate]].
    assert (Ho2 : nth_error (map (reset_obj P) (w_objs P H w)) o = Some (reset_obj P ob))
      by (rewrite nth_error_map, Ho; reflexivity).
    rewrite !fit_objE, (lin_of_hypers (map (reset_est P H) (w_heap P H w)) (w_heap P H w))
      by (rewrite map_map; reflexivity).
    change (lin_of (w_heap P H w) (reset_obj P ob)) with (lin_of (w_heap P H w) ob).
    cbn [reset_obj o_proj o_lin o_maxc].
    destruct (fit_check (o_proj P ob) X y); [|destruct (lin_of (w_heap P H w) ob)]; cbn;
      (split; [reflexivity|]); try discriminate.
    intros _. rewrite (nth_error_lupd_eq _ _ _ _ Ho), (nth_error_lupd_eq _ _ _ _ Ho2). cbn.
    now destruct (o_proj P ob).
  Qed.

  Lemma fit_after_history (h : list op) (w : world) (o : nat) (X y : M) (ob : obj) (hy : option H) :
    nth_error (w_objs P H (run h w)) o = Some ob ->
    fit_check (o_proj P ob) X y = None ->
    lin_of (w_heap P H w) ob = Some hy ->
    snd (step (OFit M o X y) (run h w)) = OutOk E R
    /\ exists ob', nth_error (w_objs P H (fst (step (OFit M o X y) (run h w)))) o = Some ob'
         /\ o_coef P ob' = Some (fit_value (o_proj P ob) hy X y)
         /\ o_proj P ob' = o_proj P ob /\ o_lin P ob' = o_lin P ob
         /\ (o_proj P ob = false -> o_maxc P ob' = Some (pad_q X y)).
  Proof.
    intros Ho Hc Hr. cbn. rewrite Ho, fit_objE, Hc.
    rewrite (lin_of_hypers _ (w_heap P H w)) by apply run_hypers.
    rewrite Hr; cbn. split; auto.
    eexists; split; [apply (nth_error_lupd_eq _ _ _ _ Ho)|]. cbn. repeat split; auto.
    now intros ->.
  Qed.

  Lemma rejected_fit_keeps_state (w : world) (o : nat) (X y : M) (e : E) :
    snd (step (OFit M o X y) w) = OutErr E R e ->
    w_objs P H (fst (step (OFit M o X y) w)) = w_objs P H w /\ w_heap P H (fst (step (OFit M o X y) w)) = w_heap P H w.
  Proof.
    cbn. destruct (nth_error (w_objs P H w) o) as [ob|] eqn:Ho; cbn; [|discriminate].
    rewrite fit_objE.
    destruct (fit_check (o_proj P ob) X y); [|destruct (lin_of (w_heap P H w) ob)]; cbn; try discriminate.
    intros _; split; auto. now apply lupd_same.
  Qed.

  Lemma lupd_coef (l : list obj) (o1 o : nat) (ob nb ob' : obj) (c : P) :
    nth_error l o1 = Some ob -> nth_error (lupd l o1 nb) o = Some ob' -> o_coef P ob' = Some c ->
    (exists ob0, nth_error l o = Some ob0 /\ o_coef P ob0 = Some c) \/ (o = o1 /\ ob' = nb).
  Proof.
    intros H1. destruct (Nat.eq_dec o1 o) as [<-|Hne].
    - rewrite (nth_error_lupd_eq _ _ _ _ H1). intros [= <-] _. now right.
    - rewrite nth_error_lupd_neq by assumption. intros; left; eauto.
  Qed.

  Lemma step_coef (a : op) (w : world) (o : nat) (ob' : obj) (c : P) :
    nth_error (w_objs P H (fst (step a w))) o = Some ob' -> o_coef P ob' = Some c ->
    (exists ob0, nth_error (w_objs P H w) o = Some ob0 /\ o_coef P ob0 = Some c)
    \/ prov (hypers w) [a] o c.
  Proof.
    destruct a as [o1 X y|o1 b|o1 l|e X y|o1 Xn]; cbn;
      try (destruct (nth_error (w_objs P H w) o1) as [ob|] eqn:Ho1; cbn; [|intros; left; eauto]).
    - rewrite fit_objE.
      destruct (fit_check (o_proj P ob) X y) eqn:Hc; [|destruct (lin_of (w_heap P H w) ob) as [hy|] eqn:Hr];
        cbn; intros Hn Hcf; destruct (lupd_coef _ _ _ _ _ _ _ Ho1 Hn Hcf) as [Hl|[-> ->]]; auto;
        try (left; eauto; fail).
      cbn in Hcf; injection Hcf as <-. right. exists (o_proj P ob), hy, X, y.
      repeat split; auto. now left. intros k ->. now apply lin_of_In with (ob := ob).
    - intros Hn Hcf; destruct (lupd_coef _ _ _ _ _ _ _ Ho1 Hn Hcf) as [Hl|[-> ->]]; left; eauto.
    - intros Hn Hcf; destruct (lupd_coef _ _ _ _ _ _ _ Ho1 Hn Hcf) as [Hl|[-> ->]]; left; eauto.
    - destruct (nth_error (w_heap P H w) e) as [es|]; cbn; [|intros; left; eauto].
      destruct (est_check X y); cbn; intros; left; eauto.
    - intros; left; eauto.
  Qed.

  Lemma prov_weaken hs (h1 h2 : list op) o c : (forall a, In a h1 -> In a h2) -> prov hs h1 o c -> prov hs h2 o c.
  Proof. intros Hi (b & hy & X & y & E1 & E2 & E3 & E4). exists b, hy, X, y. repeat split; auto. Qed.

  Lemma run_coef (h : list op) (w : world) (o : nat) (ob' : obj) (c : P) :
    nth_error (w_objs P H (run h w)) o = Some ob' -> o_coef P ob' = Some c ->
    (exists ob0, nth_error (w_objs P H w) o = Some ob0 /\ o_coef P ob0 = Some c)
    \/ prov (hypers w) h o c.
  Proof.
    revert w; induction h as [|a h IH]; intros w; cbn.
    - intros Hn Hc; left; eauto.
    - intros Hn Hc. destruct (IH _ Hn Hc) as [(ob1 & Hn1 & Hc1)|Hp].
      + destruct (step_coef a w o ob1 c Hn1 Hc1) as [Hl|Hp]; [left; auto|right].
        eapply prov_weaken; [|exact Hp]. intros a' [<-|[]]; now left.
      + right. rewrite step_hypers in Hp. eapply prov_weaken; [|exact Hp]. intros a' Ha; now right.
  Qed.

  Lemma coef_provenance (h : list op) (w : world) (o : nat) (ob' : obj) (c : P) :
    (forall ob0, In ob0 (w_objs P H w) -> o_coef P ob0 = None) ->
    nth_error (w_objs P H (run h w)) o = Some ob' -> o_coef P ob' = Some c ->
    prov (hypers w) h o c.
  Proof.
    intros H0 Hn Hc. destruct (run_coef h w o ob' c Hn Hc) as [(ob0 & Hn0 & Hc0)|Hp]; auto.
    apply nth_error_In in Hn0. rewrite (H0 _ Hn0) in Hc0. discriminate.
  Qed.
End MachineP.

Lemma d_fit_check_ok (b : bool) (X y : dmat) :
  d_fit_check b X y = None ->
  exists p, d_cols X = Some p /\ p <> 0 /\ d_rows X <> 0 /\ d_rows y = d_rows X /\ d_ncols y <> 0
            /\ (b = false -> exists t, d_cols y = Some t).
Proof.
  unfold d_fit_check, d_ncols. destruct (d_cols X) as [p|]; [|discriminate].
  destruct (negb (d_fin X && d_fin y)); [discriminate|].
  destruct (d_rows X =? 0) eqn:Hr; cbn; [discriminate|].
  destruct (p =? 0) eqn:Hp; cbn; [discriminate|].
  destruct (d_rows X =? d_rows y) eqn:Hy; cbn; [|discriminate].
  apply Nat.eqb_neq in Hr, Hp. apply Nat.eqb_eq in Hy.
  destruct (d_cols y) as [[|t]|]; try discriminate; intros Hc;
    exists p; repeat split; auto; try lia; intros ->; try discriminate; eauto.
Qed.

Lemma d_predict_after_fit (w : dworld) (o : nat) (ob : dobj) (X y Xn : dmat) (c : nat) :
  nth_error (w_objs _ _ w) o = Some ob ->
  snd (d_step (dFit o X y) w) = dOk ->
  d_cols Xn = Some c -> c <> 0 -> d_fin Xn = true -> d_rows Xn <> 0 ->
  snd (d_step (dPredict o Xn) (fst (d_step (dFit o X y) w)))
  = dPred (if o_proj _ ob
           then (if c =? d_ncols X then DShape (d_rows Xn) (d_ncols y) else DErr EValue)
           else (if Nat.max (d_ncols X) (d_ncols y) <? c then DErr EValue
                 else DShape (d_rows Xn) (Nat.max (d_ncols X) (d_ncols y)))).
Proof.
  intros Ho Hok Hc Hc0 Hfin Hr. apply Nat.eqb_neq in Hr, Hc0.
  unfold d_step, dFit, dPredict, dOk, dPred in *. cbn in *. rewrite Ho in *. cbn in *.
  rewrite fit_objE in *.
  destruct (d_fit_check (o_proj dcoef ob) X y); [discriminate|].
  destruct (lin_of dcoef nat (w_heap dcoef nat w) ob); [|discriminate]. cbn.
  rewrite (nth_error_lupd_eq _ _ _ _ Ho). cbn.
  unfold d_predict. rewrite Hc, Hfin, Hr, Hc0. cbn.
  destruct (o_proj dcoef ob); cbn; [reflexivity|]. unfold d_pad_q. now rewrite Nat.eqb_refl.
Qed.
