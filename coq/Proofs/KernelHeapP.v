(* C12 — the object holds values, not references (Model/KernelHeap.v). *)
From Coq Require Import List Bool Arith.
From Verif Require Import KernelObj KernelHeap KernelObjP.
Import ListNotations.

Section KnHeapP.
  Variable T : Type.
  Variables nrows ncols : T -> nat.
  Variable norm_w : T -> T.
  Variable fit_num : bool -> bool -> T -> option T -> T * T * T.
  Variable tr_num : bool -> option T -> T -> T -> T -> T -> T.
  Variable cen_num : bool -> option T -> T -> T -> T -> T.

  Notation kstep := (kn_step T nrows ncols norm_w fit_num tr_num).
  Notation krun := (kn_run T nrows ncols norm_w fit_num tr_num).
  Notation hstep := (kh_step T nrows ncols norm_w fit_num tr_num cen_num).
  Notation hrun := (kh_run T nrows ncols norm_w fit_num tr_num cen_num).
  Notation hresolve := (kh_resolve T nrows ncols norm_w fit_num tr_num cen_num).

  (* one step of the heap machine is the value-level step on the values read at call time *)
  Lemma kh_step_view o h op k :
    kh_view T h op = Some k ->
    let '(o1, _, r) := hstep o h op in (o1, r) = (fst (kstep o k), Some (snd (kstep o k))).
  Proof.
    destruct op; cbn [kh_view]; intros E; inversion E; subst; cbn [kh_step kh_view];
      try (destruct (kstep o _) as [o1 r]; reflexivity).
    - destruct (kstep o (OTransform (h aK))) as [o1 r].
      destruct r; try reflexivity. destruct (o_attrs T o); reflexivity.
    - destruct (kstep o (OFitTransform (h aK) (hrd T h aw))) as [o1 r].
      destruct r; try reflexivity. destruct (o_attrs T o1); reflexivity.
  Qed.

  Lemma kh_step_write o h a v : hstep o h (HWrite a v) = (o, hupd T h a v, None).
  Proof. reflexivity. Qed.

  Lemma kh_run_resolved ops : forall o h,
    let '(o2, _, rs) := hrun o h ops in (o2, rs) = krun o (hresolve o h ops).
  Proof.
    induction ops as [|op ops IH]; intros o h; [reflexivity|].
    cbn [kh_run kh_resolve].
    destruct (kh_view T h op) as [k|] eqn:V.
    - pose proof (kh_step_view o h op k V) as S.
      destruct (hstep o h op) as [[o1 h1] r]. inversion S; subst.
      specialize (IH (fst (kstep o k)) h1).
      destruct (hrun (fst (kstep o k)) h1 ops) as [[o2 h2] rs].
      cbn [kn_run]. destruct (kstep o k) as [o1' r1]; cbn [fst snd] in *.
      destruct (krun o1' (hresolve o1' h1 ops)) as [o3 rs3]. inversion IH; subst. reflexivity.
    - destruct op; try discriminate V. cbn [kh_step].
      specialize (IH o (hupd T h a v)).
      destruct (hrun o (hupd T h a v) ops) as [[o2 h2] rs]. exact IH.
  Qed.

  Definition agree_off (a : nat) (h1 h2 : heap T) : Prop := forall b, b <> a -> h1 b = h2 b.

  (* a step sees the heap only at the addresses it reads, and writes the same cells in both *)
  Lemma kh_step_agree a o h1 h2 op :
    agree_off a h1 h2 -> ~ In a (kh_reads T op) ->
    let '(o1, g1, r1) := hstep o h1 op in
    let '(o2, g2, r2) := hstep o h2 op in
    o1 = o2 /\ r1 = r2 /\ agree_off a g1 g2.
  Proof.
    intros A N.
    assert (R : forall b, In b (kh_reads T op) -> h1 b = h2 b).
    { intros b Hb; apply A; intros E; subst; exact (N Hb). }
    assert (W : forall b v, agree_off a (hupd T h1 b v) (hupd T h2 b v)).
    { intros b v c Hc; unfold hupd. destruct (Nat.eqb c b); [reflexivity | exact (A c Hc)]. }
    destruct op as [b v|c t|aK aw|aK|aK|aK aw|aK aw]; cbn [kh_step kh_view]; auto;
      try (assert (E2 : hrd T h1 aw = hrd T h2 aw)
             by (destruct aw; cbn [hrd]; [f_equal; apply R; cbn; auto | reflexivity]);
           rewrite E2);
      try (rewrite (R aK (or_introl eq_refl)));
      destruct (kstep o _) as [o1 r]; auto.
    - destruct r; auto. destruct (o_attrs T o); auto.
    - destruct r; auto. destruct (o_attrs T o1); auto.
  Qed.

  Lemma kh_run_agree a ops : forall o h1 h2,
    agree_off a h1 h2 -> (forall op, In op ops -> ~ In a (kh_reads T op)) ->
    let '(o1, _, rs1) := hrun o h1 ops in
    let '(o2, _, rs2) := hrun o h2 ops in
    o1 = o2 /\ rs1 = rs2.
  Proof.
    induction ops as [|op ops IH]; intros o h1 h2 A N; [cbn; auto|].
    cbn [kh_run].
    pose proof (kh_step_agree a o h1 h2 op A (N op (or_introl eq_refl))) as S.
    destruct (hstep o h1 op) as [[o1 g1] r1]. destruct (hstep o h2 op) as [[o2 g2] r2].
    destruct S as [Eo [Er Ag]]; subst.
    specialize (IH o2 g1 g2 Ag (fun op' H => N op' (or_intror H))).
    destruct (hrun o2 g1 ops) as [[o3 g3] rs3]. destruct (hrun o2 g2 ops) as [[o4 g4] rs4].
    destruct IH; subst; auto.
  Qed.

  Lemma kh_write_irrelevant (pre tail : list (kh_op T)) o h a v :
    (forall op, In op tail -> ~ In a (kh_reads T op)) ->
    let '(o1, _, rs1) := hrun o h (pre ++ HWrite a v :: tail) in
    let '(o2, _, rs2) := hrun o h (pre ++ tail) in
    o1 = o2 /\ rs1 = rs2.
  Proof.
    revert o h; induction pre as [|op pre IH]; intros o h N.
    - cbn [app kh_run kh_step].
      assert (A : agree_off a (hupd T h a v) h).
      { intros b Hb; unfold hupd. destruct (Nat.eqb_spec b a); [contradiction|reflexivity]. }
      pose proof (kh_run_agree a tail o (hupd T h a v) h A N) as R.
      destruct (hrun o (hupd T h a v) tail) as [[o1 g1] rs1]. exact R.
    - cbn [app kh_run]. destruct (hstep o h op) as [[o1 h1] r].
      specialize (IH o1 h1 N).
      destruct (hrun o1 h1 (pre ++ HWrite a v :: tail)) as [[o2 g2] rs2].
      destruct (hrun o1 h1 (pre ++ tail)) as [[o3 g3] rs3].
      destruct IH; subst; auto.
  Qed.

  Lemma kh_fit_transform_inplace o h aK aw :
    kn_w_ok T nrows (h aK) (hrd T h aw) = true ->
    let '(o2, h2, rs) := hrun o h [HFit aK aw; HTransformIP aK] in
    hrun o h [HFitTransformIP aK aw] = (o2, h2, [last rs RDone]).
  Proof.
    intros Hw. cbn [kh_run kh_step kh_view kn_step].
    unfold kn_do_fit at 1 2. rewrite Hw.
    destruct (fit_num _ _ (h aK) _) as [[r a] s]. cbn [o_attrs o_center].
    (* transform returns the object it was given: the attributes it reads are the fitted ones *)
    match goal with |- context [kn_do_transform ?x1 ?x2 ?x3 ?x4 ?x5 ?x6] =>
      pose proof (kn_transform_pure x1 x2 x3 x4 x5 x6) as E;
      destruct (kn_do_transform x1 x2 x3 x4 x5 x6) as [o3 r3] end.
    cbn [fst] in E; subst o3. destruct r3; reflexivity.
  Qed.
End KnHeapP.
