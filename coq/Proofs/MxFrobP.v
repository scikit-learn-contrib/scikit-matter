(* Frobenius norm / trace inner product over a real closed field, and what follows from its
   definiteness: a Gram matrix X^T X (+ a I) annihilates only what X annihilates; orthonormal
   factors preserve the norm and cancel; the four Penrose equations determine the
   pseudo-inverse.  ssreflect style. *)
From mathcomp Require Import all_ssreflect all_algebra.
Set Implicit Arguments.
Unset Strict Implicit.
Unset Printing Implicit Defensive.
Import GRing.Theory Num.Theory.
Local Open Scope ring_scope.

Section Frob.
  Variable F : rcfType.

  (* <A, B> = tr(A^T B),  |A|^2 = <A, A> *)
  Definition ip m n (A B : 'M[F]_(m, n)) : F := \tr (A^T *m B).
  Definition fn2 m n (A : 'M[F]_(m, n)) : F := ip A A.

  Lemma ipE m n (A B : 'M[F]_(m, n)) : ip A B = \sum_j \sum_i A i j * B i j.
  Proof.
    rewrite /ip /mxtrace; apply: eq_bigr => j _; rewrite mxE.
    by apply: eq_bigr => i _; rewrite mxE.
  Qed.

  Lemma fn2E m n (A : 'M[F]_(m, n)) : fn2 A = \sum_j \sum_i A i j ^+ 2.
  Proof. by rewrite /fn2 ipE; apply: eq_bigr => j _; apply: eq_bigr => i _; rewrite expr2. Qed.

  Lemma fn2_ge0 m n (A : 'M[F]_(m, n)) : 0 <= fn2 A.
  Proof.
    rewrite fn2E; apply: sumr_ge0 => j _; apply: sumr_ge0 => i _; exact: sqr_ge0.
  Qed.

  Lemma fn2_eq0 m n (A : 'M[F]_(m, n)) : fn2 A = 0 -> A = 0.
  Proof.
    rewrite fn2E => /eqP; rewrite psumr_eq0; last first.
      by move=> j _; apply: sumr_ge0 => i _; exact: sqr_ge0.
    move=> /allP H; apply/matrixP => i j; rewrite mxE.
    have := H j (mem_index_enum _); rewrite /= psumr_eq0; last by move=> ? _; exact: sqr_ge0.
    by move=> /allP /(_ i (mem_index_enum _)) /=; rewrite sqrf_eq0 => /eqP.
  Qed.

  Lemma fn2_0 m n : fn2 (0 : 'M[F]_(m, n)) = 0.
  Proof. by rewrite /fn2 /ip mulmx0 mxtrace0. Qed.

  Lemma fn2_gt0 m n (A : 'M[F]_(m, n)) : A != 0 -> 0 < fn2 A.
  Proof. by move=> A0; rewrite lt0r fn2_ge0 andbT; apply: contra A0 => /eqP/fn2_eq0->. Qed.

  Lemma ipC m n (A B : 'M[F]_(m, n)) : ip A B = ip B A.
  Proof. by rewrite /ip -mxtrace_tr trmx_mul trmxK. Qed.

  Lemma ipDl m n (A B C : 'M[F]_(m, n)) : ip (A + B) C = ip A C + ip B C.
  Proof. by rewrite /ip linearD /= mulmxDl linearD. Qed.

  Lemma ipDr m n (A B C : 'M[F]_(m, n)) : ip A (B + C) = ip A B + ip A C.
  Proof. by rewrite /ip mulmxDr linearD. Qed.

  Lemma ipNl m n (A B : 'M[F]_(m, n)) : ip (- A) B = - ip A B.
  Proof. by rewrite /ip linearN /= mulNmx linearN. Qed.

  Lemma ipNr m n (A B : 'M[F]_(m, n)) : ip A (- B) = - ip A B.
  Proof. by rewrite /ip mulmxN linearN. Qed.

  Lemma ipZr m n a (A B : 'M[F]_(m, n)) : ip A (a *: B) = a * ip A B.
  Proof. by rewrite /ip -scalemxAr linearZ. Qed.

  Lemma ipZl m n a (A B : 'M[F]_(m, n)) : ip (a *: A) B = a * ip A B.
  Proof. by rewrite ipC ipZr ipC. Qed.

  (* <A, B C> = <B^T A, C>   and   <A, B C> = <A C^T, B> *)
  Lemma ip_mull m n q (A : 'M[F]_(m, n)) (B : 'M[F]_(m, q)) (C : 'M[F]_(q, n)) :
    ip A (B *m C) = ip (B^T *m A) C.
  Proof. by rewrite /ip trmx_mul trmxK mulmxA. Qed.

  Lemma ip_mulr m n q (A : 'M[F]_(m, n)) (B : 'M[F]_(m, q)) (C : 'M[F]_(q, n)) :
    ip A (B *m C) = ip (A *m C^T) B.
  Proof. by rewrite /ip trmx_mul trmxK mulmxA mxtrace_mulC mulmxA. Qed.

  Lemma fn2D m n (A B : 'M[F]_(m, n)) : fn2 (A + B) = fn2 A + 2%:R * ip A B + fn2 B.
  Proof.
    rewrite /fn2 ipDl !ipDr (ipC B A) mulr2n mulrDl mul1r.
    by rewrite addrA [in RHS]addrA.
  Qed.

  Lemma fn2N m n (A : 'M[F]_(m, n)) : fn2 (- A) = fn2 A.
  Proof. by rewrite /fn2 ipNl ipNr opprK. Qed.

  Lemma fn2B m n (A B : 'M[F]_(m, n)) : fn2 (A - B) = fn2 A - 2%:R * ip A B + fn2 B.
  Proof. by rewrite fn2D fn2N ipNr mulrN. Qed.

  Lemma fn2_tr m n (A : 'M[F]_(m, n)) : fn2 A^T = fn2 A.
  Proof. by rewrite /fn2 /ip trmxK mxtrace_mulC. Qed.

  Lemma fn2_isol m n q (V : 'M[F]_(m, n)) (A : 'M[F]_(n, q)) :
    V^T *m V = 1%:M -> fn2 (V *m A) = fn2 A.
  Proof. by move=> VV; rewrite /fn2 ip_mull mulmxA VV mul1mx. Qed.

  Lemma fn2_isor m n q (V : 'M[F]_(m, n)) (A : 'M[F]_(q, n)) :
    V^T *m V = 1%:M -> fn2 (A *m V^T) = fn2 A.
  Proof. by move=> VV; rewrite -fn2_tr trmx_mul trmxK fn2_isol // fn2_tr. Qed.

  (* Pythagoras for the projection U U^T, and Bessel: U^T U = 1 -> |U^T y| <= |y| *)
  Lemma fn2_proj_resid m k t (U : 'M[F]_(m, k)) (y : 'M[F]_(m, t)) :
    U^T *m U = 1%:M -> fn2 (y - U *m (U^T *m y)) = fn2 y - fn2 (U^T *m y).
  Proof.
    move=> UU; rewrite fn2B fn2_isol // ip_mull /fn2 mulr2n mulrDl mul1r opprD addrA.
    by rewrite addrNK.
  Qed.

  Lemma fn2_bessel m k t (U : 'M[F]_(m, k)) (y : 'M[F]_(m, t)) :
    U^T *m U = 1%:M -> fn2 (U^T *m y) <= fn2 y.
  Proof. by move=> UU; rewrite -subr_ge0 -fn2_proj_resid // fn2_ge0. Qed.

  Lemma fn2_orth m n (Z : 'M[F]_(m, n)) (W : 'M[F]_n) : W^T *m W = 1%:M -> fn2 (Z *m W) = fn2 Z.
  Proof.
    move=> WW; have WWt : (W^T)^T *m W^T = 1%:M by rewrite trmxK; exact: mulmx1C.
    by rewrite -[W]trmxK fn2_isor.
  Qed.

  Lemma fn2_scalar1 k : fn2 (1%:M : 'M[F]_k) = k%:R.
  Proof. by rewrite /fn2 /ip trmx1 mulmx1 mxtrace1. Qed.

  Lemma fn2_row0 m p z (Z : 'M[F]_(m, p)) : fn2 (row_mx Z (0 : 'M[F]_(m, z))) = fn2 Z.
  Proof.
    rewrite -fn2_tr /fn2 /ip trmxK tr_row_mx mul_row_col trmx0 mulmx0 addr0.
    by rewrite mxtrace_mulC.
  Qed.

  Lemma fn2_rowE n (x : 'rV[F]_n) : fn2 x = (x *m x^T) ord0 ord0.
  Proof. by rewrite /fn2 /ip mxtrace_mulC [\tr _]big_ord1. Qed.

  (* a row vector: x x^T is the 1 x 1 matrix of its squared length *)
  Lemma row_sq_ge0 n (x : 'rV[F]_n) : 0 <= (x *m x^T) ord0 ord0.
  Proof. by rewrite -fn2_rowE fn2_ge0. Qed.

  Lemma row_sq_eq0 n (x : 'rV[F]_n) : (x *m x^T) ord0 ord0 = 0 -> x = 0.
  Proof. by rewrite -fn2_rowE; exact: fn2_eq0. Qed.

  Lemma row_sq_gt0 n (x : 'rV[F]_n) : x != 0 -> 0 < (x *m x^T) ord0 ord0.
  Proof. by rewrite -fn2_rowE; exact: fn2_gt0. Qed.

  Lemma tr_diag_mul q (d : 'rV[F]_q) (Z : 'M[F]_q) : \tr (diag_mx d *m Z) = \sum_i d ord0 i * Z i i.
  Proof. by rewrite mul_diag_mx /mxtrace; apply: eq_bigr => i _; rewrite mxE. Qed.

  Lemma mxtrace_gram_ge0 m n (A : 'M[F]_(m, n)) : 0 <= \tr (A^T *m A).
  Proof. exact: fn2_ge0. Qed.

  Lemma mxtrace_gramT_ge0 m n (A : 'M[F]_(m, n)) : 0 <= \tr (A *m A^T).
  Proof. by rewrite mxtrace_mulC; exact: fn2_ge0. Qed.

  Lemma gram_eq0 m n (A : 'M[F]_(m, n)) : A^T *m A = 0 -> A = 0.
  Proof. by move=> H; apply: fn2_eq0; rewrite /fn2 /ip H mxtrace0. Qed.

  Lemma gram_eq m n (A B : 'M[F]_(m, n)) : (A - B)^T *m (A - B) = 0 -> A = B.
  Proof. by move/gram_eq0/subr0_eq. Qed.

  Lemma gramT_eq0 m n (A : 'M[F]_(m, n)) : A *m A^T = 0 -> A = 0.
  Proof. by move=> H; rewrite -[A]trmxK (@gram_eq0 _ _ A^T) ?trmx0 // trmxK. Qed.

  Lemma ip_gram m p t (X : 'M[F]_(m, p)) a (D : 'M[F]_(p, t)) :
    ip D ((X^T *m X + a%:M) *m D) = fn2 (X *m D) + a * fn2 D.
  Proof. by rewrite mulmxDl ipDr mul_scalar_mx ipZr -mulmxA ip_mull trmxK. Qed.

  Lemma gram_ker m p t (X : 'M[F]_(m, p)) (D : 'M[F]_(p, t)) : X^T *m X *m D = 0 -> X *m D = 0.
  Proof. by move=> H; apply: gram_eq0; rewrite trmx_mul -mulmxA [X^T *m _]mulmxA H mulmx0. Qed.

  Lemma ridge_inj m p t (X : 'M[F]_(m, p)) a (D : 'M[F]_(p, t)) :
    0 < a -> (X^T *m X + a%:M) *m D = 0 -> D = 0.
  Proof.
    move=> a0 H; have := ip_gram X a D; rewrite H /ip mulmx0 mxtrace0 => /esym/eqP.
    rewrite paddr_eq0 ?fn2_ge0 ?pmulr_rge0 ?fn2_ge0 // mulf_eq0 (negbTE (lt0r_neq0 a0)).
    by case/andP=> _ /eqP/fn2_eq0.
  Qed.

  Lemma mulmx_linv_inj m n p (L : 'M[F]_(n, m)) (A : 'M[F]_(m, n)) (W Q : 'M[F]_(n, p)) :
    L *m A = 1%:M -> A *m W = A *m Q -> W = Q.
  Proof. by move=> HL H; rewrite -[W]mul1mx -HL -mulmxA H mulmxA HL mul1mx. Qed.

  (* the four Penrose equations determine the pseudo-inverse: X A and A X are symmetric
     idempotents with the same range as for Y *)
  Lemma pinv_uniq m n (A : 'M[F]_(m, n)) (X Y : 'M[F]_(n, m)) :
    A *m X *m A = A -> X *m A *m X = X -> (A *m X)^T = A *m X -> (X *m A)^T = X *m A ->
    A *m Y *m A = A -> Y *m A *m Y = Y -> (A *m Y)^T = A *m Y -> (Y *m A)^T = Y *m A -> X = Y.
  Proof.
    move=> x1 x2 x3 x4 y1 y2 y3 y4.
    have e1 : X *m A = Y *m A.
      transitivity ((Y *m A *m (X *m A))^T).
        by rewrite trmx_mul x4 y4 -mulmxA [A *m (Y *m A)]mulmxA y1.
      by rewrite -mulmxA [A *m (X *m A)]mulmxA x1 y4.
    have e2 : A *m X = A *m Y.
      transitivity ((A *m X *m (A *m Y))^T).
        by rewrite trmx_mul y3 x3 mulmxA y1.
      by rewrite mulmxA x1 y3.
    by rewrite -x2 e1 -mulmxA e2 mulmxA y2.
  Qed.

  Lemma pinv_sym n (A G : 'M[F]_n) : A^T = A ->
    A *m G *m A = A -> G *m A *m G = G -> (A *m G)^T = A *m G -> (G *m A)^T = G *m A -> G^T = G.
  Proof.
    move=> sA g1 g2 g3 g4; apply: (@pinv_uniq _ _ A) => //.
    - by rewrite -{1 2}sA -!trmx_mul mulmxA g1.
    - by rewrite -{1}sA -!trmx_mul mulmxA g2.
    - by rewrite trmx_mul trmxK sA -g4 trmx_mul sA.
    - by rewrite trmx_mul trmxK sA -g3 trmx_mul sA.
  Qed.

  (* an orthonormal factor in the middle of a product *)
  Lemma mulmxKtV m n p (M : 'M[F]_(m, n)) (A : 'M[F]_(p, n)) : M^T *m M = 1%:M -> A *m M^T *m M = A.
  Proof. by move=> MM; rewrite -mulmxA MM mulmx1. Qed.

  Lemma fn2_diag_le k t (g : 'rV[F]_k) (B : 'M[F]_(k, t)) (c2 : F) :
    (forall i, g ord0 i ^+ 2 <= c2) -> fn2 (diag_mx g *m B) <= c2 * fn2 B.
  Proof.
    move=> Hg; rewrite !fn2E mulr_sumr; apply: ler_sum => j _.
    rewrite mulr_sumr; apply: ler_sum => i _.
    rewrite mul_diag_mx mxE exprMn; apply: ler_wpmul2r; [exact: sqr_ge0 | exact: Hg].
  Qed.
End Frob.
