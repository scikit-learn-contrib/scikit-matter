(* C02: PCov-FPS on an arbitrary square matrix read along either axis; chains of fits of one
   estimator (a cold fit, then warm-started continuations) on any distance-table scorer. *)
From Verif Require Import ListX Greedy FPS GreedyP FPSP FPSInst FPSExt.

Section MatThm.
  Variables (axis1 : bool) (D cs : list (list Z)) (ycand : option (list (list Z))).
  Hypothesis Hsq : sqmat (length cs) D.
  Variables (i0 : nat) (t : thr) (niter : nat) (g' : fps_g) (st : bool).
  Hypothesis Hi0 : (i0 < length cs)%nat.
  Hypothesis Hfit : pcov_fit axis1 D cs ycand i0 t niter = (g', st).

  Lemma mat_fit_inv : FInv cs ycand (mdist axis1 D) g'.
  Proof using Hsq Hi0 Hfit. exact (fit1_FInv cs ycand _ _ _ (mat_newdist D _ Hsq axis1) i0 t _ g' st Hi0 Hfit). Qed.

  Lemma mat_initial : firstn 1 (sel g') = [i0].
  Proof using Hsq Hi0 Hfit.
    refine (initial_selections cs ycand _ _ _ (mat_newdist D _ Hsq axis1) [i0] _ _ t _ g' st Hfit);
      repeat constructor; [intros []|exact Hi0].
  Qed.
End MatThm.

Section ChainP.
  Variable cs : list (list Z).
  Variable ycand : option (list (list Z)).
  Variable nm : list Z.
  Variable cross : nat -> list Z.
  Variable dist : nat -> nat -> Z.
  Hypothesis Hnew : forall l, (l < length cs)%nat ->
                              newdist nm cross l = map (fun j => dist j l) (seq 0 (length cs)).
  Hypothesis dist_nonneg : forall j l, 0 <= dist j l.
  Hypothesis dist_self : forall i, dist i i = 0.

  Notation runk := (run dst dscore (dupd nm cross) cs ycand).
  Notation GI := (GInv dst cs ycand (FP cs)).
  Notation TI := (TabInv cs dist).

  Lemma farthest_seq_app s u v :
    farthest_seq cs dist s u -> farthest_seq cs dist (s ++ u) v -> farthest_seq cs dist s (u ++ v).
  Proof using.
    revert s; induction u as [|i u IH]; intros s Hu Hv; cbn in *.
    - now rewrite app_nil_r in Hv.
    - destruct Hu as [Hi Hu]. split; [exact Hi|]. apply IH; [exact Hu|].
      now rewrite <- app_assoc.
  Qed.

  (* FInv, and everything selected after the initial ones, in whichever fit, is one farthest sequence *)
  Definition ChainInv (inits : list nat) (g : fps_g) : Prop :=
    GI g /\ TI g /\ exists new, sel g = inits ++ new /\ farthest_seq cs dist inits new.

  Lemma run_chain_inv inits t k g g' st :
    inits <> [] -> ChainInv inits g -> runk t k g = (g', st) -> ChainInv inits g'.
  Proof using Hnew dist_nonneg dist_self.
    intros Hne (HG & HT & new & Hs & Hf) Hrun.
    destruct (FInv_run cs ycand nm cross dist Hnew t k g g' st (conj HG HT) Hrun) as [HG' HT'].
    destruct (run_farthest cs ycand nm cross dist Hnew dist_nonneg dist_self t k g g' st (conj HG HT))
      as (new2 & Hs2 & Hf2); [rewrite Hs; intros E; apply app_eq_nil in E as [E _]; exact (Hne E)|exact Hrun|].
    split; [exact HG'|]. split; [exact HT'|]. exists (new ++ new2).
    split; [now rewrite Hs2, Hs, app_assoc|]. apply farthest_seq_app; [exact Hf|now rewrite <- Hs].
  Qed.

  Lemma chain_inv inits stages : inits <> [] ->
    forall g, ChainInv inits g ->
    ChainInv inits (chain (fun t k g => runk t (k - length (sel g)) g) g stages).
  Proof.
    intros Hne; induction stages as [|[t k] rest IH]; intros g Hg; cbn; [exact Hg|].
    apply IH. destruct (runk t _ g) as [g1 st] eqn:Er. eapply run_chain_inv; eauto.
  Qed.

  Lemma init_chain_inv inits :
    NoDup inits -> Forall (fun i => (i < length cs)%nat) inits ->
    ChainInv inits (fold_left (post dst (dupd nm cross) cs ycand) inits (g0 cs)).
  Proof.
    intros Hnd Hr. destruct (gi_inv cs ycand nm cross dist Hnew inits Hnd Hr) as ([A B] & C).
    split; [exact A|]. split; [exact B|]. exists []. rewrite app_nil_r. split; [exact C|exact I].
  Qed.

  Lemma ChainInv_facts inits g :
    ChainInv inits g ->
    haus (sst g) = map (fun j => tabmin dist j (sel g)) (seq 0 (length cs)) /\
    (forall k, (k < length (sel g))%nat ->
       nth k (select_distance g) None = tabmin dist (nth k (sel g) O) (firstn k (sel g))) /\
    NoDup (sel g) /\
    exists new, sel g = inits ++ new /\ farthest_seq cs dist inits new.
  Proof.
    intros (HG & HT & Hex). split; [apply HT|]. split; [|split; [apply HG|exact Hex]].
    intros k. now apply (FInv_select_distance cs ycand).
  Qed.
End ChainP.
