(* C01: theorems about Model/Select.v (GreedySelector.fit with an arbitrary scorer). *)
From Verif Require Import ListX Greedy Select ListXP GreedyP.
From Coq Require Import Sorting.Permutation Sorting.Sorted.

Section SelectP.
  Variable cand : list (list Z).
  Variable ycand : option (list (list Z)).
  Let n := length cand.

  Definition SP (s : stream) : Prop := Forall (fun v => length v = n) s.

  Lemma SP_len s : SP s -> length (s_score n s) = n.
  Proof.
    intros H. destruct s as [|v s]; cbn; [apply repeat_length|]. now inversion H.
  Qed.

  Lemma SP_upd s i : SP s -> (i < n)%nat -> SP (s_upd s i).
  Proof. intros H _. destruct s as [|v s]; cbn; [constructor|]. now inversion H. Qed.

  Notation GI := (GInv stream cand ycand SP).

  (* initial selections: the state after the cold-start initialisation *)
  Lemma init_state inits : forall g,
    let g1 := fold_left (s_post cand ycand) inits g in
    sel g1 = sel g ++ inits /\
    xsel g1 = xsel g ++ map (fun i => nth i cand []) inits /\
    (forall y, ycand = Some y -> ysel g1 = ysel g ++ map (fun i => nth i y []) inits) /\
    sst g1 = skipn (length inits) (sst g) /\ first g1 = first g.
  Proof.
    induction inits as [|i r IH]; intros g; cbn.
    - rewrite !app_nil_r. repeat split; auto.
    - destruct (IH (s_post cand ycand g i)) as (A & B & Cc & D & E).
      cbn [s_post post sel xsel ysel sst first] in *.
      rewrite A, B, D, E, <- !app_assoc. repeat split; auto.
      + intros y Hy. rewrite (Cc y Hy), Hy, <- app_assoc. reflexivity.
      + unfold s_upd. destruct (sst g); cbn; [now rewrite skipn_nil|reflexivity].
  Qed.

  Lemma cold_init_inv inits str :
    NoDup inits -> Forall (fun i => (i < n)%nat) inits -> SP str ->
    GI (fold_left (s_post cand ycand) inits
                  (mk_gst [] [] [] (repeat [] (length inits) ++ str) None)).
  Proof.
    intros Hnd Hr Hs.
    destruct (init_state inits (mk_gst [] [] [] (repeat [] (length inits) ++ str) None))
      as (A & B & Cc & D & _). cbn in A, B, Cc, D.
    unfold GInv. split; [rewrite A; exact Hnd|]. split; [rewrite A; exact Hr|].
    split; [rewrite A, B; reflexivity|]. split; [intros y Hy; rewrite A; exact (Cc y Hy)|].
    rewrite D. rewrite skipn_app, skipn_all2 by (rewrite repeat_length; lia).
    rewrite repeat_length, Nat.sub_diag. exact Hs.
  Qed.

  Lemma s_pop_flag g st g' st' : s_pop (g, st) = (g', st') -> st' = st.
  Proof. unfold s_pop. now destruct st; intros [= _ <-]. Qed.

  Lemma pop_inv g st g' st' : GI g -> s_pop (g, st) = (g', st') -> GI g' /\ sel g' = sel g.
  Proof.
    unfold s_pop. intros HG H. destruct st; injection H as <- <-; [|auto].
    split; [|auto]. destruct HG as (A & B & Cc & D & E). unfold GInv; cbn. repeat split; auto.
    destruct (sst g); cbn; [constructor|now inversion E].
  Qed.

  Lemma with_stream_inv g str : GI g -> SP str -> GI (with_stream g str).
  Proof. intros (A & B & Cc & D & _) Hs. unfold GInv, with_stream; cbn. auto. Qed.

  Definition prev_ok (prev : option (gst stream)) : Prop :=
    match prev with Some g => GI g | None => True end.

  (* a fit that returns has run the loop, from a state that satisfies the invariant and holds the
     earlier selections (warm start) or the initial ones (cold start) *)
  Lemma sfit_fitted prev c inits str g st :
    prev_ok prev -> NoDup inits -> Forall (fun i => (i < n)%nat) inits -> SP str ->
    sfit cand ycand prev c inits str = Fitted g st ->
    exists k g0 g1, resolve_n n (c_nts c) = Some k /\ GI g0 /\
      length (sel g0) = n_before prev c inits /\
      s_run cand ycand (c_thr c) (k - n_before prev c inits) g0 = (g1, st) /\ s_pop (g1, st) = (g, st).
  Proof.
    intros Hp Hnd Hr Hs. unfold sfit, n_before. fold n.
    destruct (c_full c && has_thr (c_thr c)); [discriminate|].
    destruct (resolve_n n (c_nts c)) as [k|]; [|discriminate].
    destruct (c_warm c).
    - destruct prev as [g0|]; [|discriminate].
      destruct (Nat.eqb (length (sel g0)) 0); [discriminate|].
      destruct (s_run _ _ _ _ _) as [g1 st1] eqn:Er. destruct (s_pop (g1, st1)) as [g2 st2] eqn:Ep.
      intros [= <- <-]. pose proof (s_pop_flag _ _ _ _ Ep) as ->. exists k, (with_stream g0 str), g1.
      split; [reflexivity|]. split; [now apply with_stream_inv|]. auto.
    - match goal with |- context [s_run _ _ _ _ ?g0] => set (gi := g0) end.
      destruct (s_run _ _ _ _ gi) as [g1 st1] eqn:Er. destruct (s_pop (g1, st1)) as [g2 st2] eqn:Ep.
      intros [= <- <-]. pose proof (s_pop_flag _ _ _ _ Ep) as ->. exists k, gi, g1.
      split; [reflexivity|]. split; [now apply cold_init_inv|].
      split; [unfold gi; now rewrite (proj1 (init_state inits _))|auto].
  Qed.

  Theorem sfit_inv prev c inits str g st :
    prev_ok prev -> NoDup inits -> Forall (fun i => (i < n)%nat) inits -> SP str ->
    sfit cand ycand prev c inits str = Fitted g st -> GI g.
  Proof.
    intros Hp Hnd Hr Hs H. destruct (sfit_fitted _ _ _ _ _ _ Hp Hnd Hr Hs H) as (k & g0 & g1 & _ & G0 & _ & Er & Ep).
    apply (run_inv stream _ _ cand ycand SP SP_len SP_upd) in Er; [|exact G0]. now apply (pop_inv _ _ _ _ Er Ep).
  Qed.

  (* number of selections: exactly the resolved n_to_select unless the threshold stopped *)
  Theorem sfit_length prev c inits str g st k :
    prev_ok prev -> NoDup inits -> Forall (fun i => (i < n)%nat) inits -> SP str ->
    sfit cand ycand prev c inits str = Fitted g st ->
    resolve_n n (c_nts c) = Some k ->
    (n_before prev c inits <= k)%nat ->
    (length (sel g) <= k)%nat /\ (st = false -> length (sel g) = k).
  Proof.
    intros Hp Hnd Hr Hs H Hk Hle.
    destruct (sfit_fitted _ _ _ _ _ _ Hp Hnd Hr Hs H) as (k' & g0 & g1 & Hk' & G0 & Hn0 & Er & Ep).
    rewrite Hk in Hk'. injection Hk' as <-.
    destruct (run_extends stream _ _ cand ycand SP SP_len SP_upd _ _ _ _ _ G0 Er) as (new & Hn & Hl & Hst).
    apply (run_inv stream _ _ cand ycand SP SP_len SP_upd) in Er; [|exact G0].
    destruct (pop_inv _ _ _ _ Er Ep) as (_ & ->). rewrite Hn, app_length, Hn0.
    split; [lia|]. intros E. rewrite (Hst E). lia.
  Qed.

  (* transform: the masked columns are the candidates at the sorted selected indices *)
  Lemma filter_mask_map (f : nat -> bool) (l : list (list Z)) k0 :
    filter_mask (map f (seq k0 (length l))) l
    = map (fun i => nth (i - k0) l []) (filter f (seq k0 (length l))).
  Proof.
    revert k0; induction l as [|a l IH]; intros k0; cbn; [reflexivity|].
    destruct (f k0); cbn; rewrite ?Nat.sub_diag, IH; [f_equal|]; apply map_ext_in; intros i Hi;
      apply filter_In in Hi as [Hi _]; apply in_seq in Hi;
      now replace (i - k0)%nat with (S (i - S k0)) by lia.
  Qed.

  Theorem transform_spec s :
    NoDup s -> Forall (fun i => (i < n)%nat) s ->
    transform_cols cand s = map (fun i => nth i cand []) (support_indices s).
  Proof.
    intros Hnd Hr. unfold transform_cols, support.
    rewrite filter_mask_map.
    rewrite (strictly_sorted_unique (filter (fun i => memb i s) (seq 0 (length cand))) (support_indices s)).
    - apply map_ext. intros i. now rewrite Nat.sub_0_r.
    - apply sorted_filter_seq.
    - apply sorted_nodup_strict; [apply sort_nat_sorted|].
      eapply Permutation_NoDup; [apply sort_nat_perm|exact Hnd].
    - intros x. rewrite filter_In, in_seq, memb_In. split.
      + intros [_ Hx]. eapply Permutation_in; [apply sort_nat_perm|exact Hx].
      + intros Hx. assert (Hx' : In x s).
        { eapply Permutation_in; [apply Permutation_sym, sort_nat_perm|exact Hx]. }
        split; [|exact Hx']. rewrite Forall_forall in Hr. specialize (Hr _ Hx'). fold n. lia.
  Qed.
End SelectP.
