(* C12 — a weighted mean is a product with the normalised weight vector ([wmeanE]), so fit and
   transform of both classes are matrix expressions ([kn_fit_mxE], [kn_transform_mxE], [sk_fit_mxE]);
   kernel centring of a Gram matrix is centring of the features ([centered_gram]). *)
From mathcomp Require Import all_ssreflect all_algebra.
From Verif Require Import MExp MExpMx MxBox MxBoxP MxFrobP ScalerMx ScalerP KernelNorm KernelNormMx.
Set Implicit Arguments.
Unset Strict Implicit.
Unset Printing Implicit Defensive.
Import Order.Theory GRing.Theory Num.Theory.
Local Open Scope ring_scope.

Section Weights.
  Variable F : rcfType.
  Variable n : nat.
  Implicit Types (w : 'cV[F]_n).

  Definition nw w : 'cV[F]_n := (wsum w)^-1 *: w.

  Lemma nw_scale (a : F) w : a != 0 -> nw (a *: w) = nw w.
  Proof.
    by move=> a0; rewrite /nw wsum_scale invfM scalerA mulrAC mulVf // mul1r.
  Qed.

  Lemma wmeanE p w (A : 'M[F]_(n, p)) : wmean w A = (nw w)^T *m A.
  Proof. by rewrite wmeanZ /nw linearZ /= -scalemxAl. Qed.

  Lemma wmean_rows_of p w (r : 'rV[F]_p) : wsum w != 0 -> wmean w (rows_of n r) = r.
  Proof.
    move=> S0; apply/rowP => j; rewrite mxE.
    rewrite (eq_bigr (fun i => w i ord0 * r ord0 j)) => [|i _]; last by rewrite mxE.
    by rewrite -mulr_suml mulrAC divff // mul1r.
  Qed.

End Weights.

(* formula lemmas, for any environment holding the weights in variable 1 *)
Section Formulas.
  Variable F : rcfType.
  Variables (cfg : kn_cfg) (n : nat) (env : env_mx F) (w : 'cV[F]_n).
  Hypothesis Hw : env n 1%N 1%N = w.
  Hypothesis ok : kn_wok cfg w.
  Let ew := kn_effw cfg w.
  Let u := nw ew.

  Lemma ev_kwts : eval_mx env (kn_wts cfg n) = if kn_has_w cfg then (wsum w)^-1 *: w else const_mx 1.
  Proof.
    rewrite /kn_wts; case: (kn_has_w cfg) => //.
    by rewrite evScaleRecip evMul evTr evOnes ones_dot /kW evVar Hw.
  Qed.

  Lemma ev_kwsum : (eval_mx env (kn_wsum cfg n)) ord0 ord0 = wsum (eval_mx env (kn_wts cfg n)).
  Proof. by rewrite /kn_wsum evMul evTr evOnes ones_dot. Qed.

  Lemma nw_wts : nw (eval_mx env (kn_wts cfg n)) = u.
  Proof.
    rewrite ev_kwts /u /ew; move: ok; rewrite /kn_wok /kn_effw.
    case: (kn_has_w cfg) => // S0.
    by rewrite nw_scale // invr_eq0.
  Qed.

  Lemma ev_avg0 q (A : mexp n q) : eval_mx env (kn_avg0 cfg n A) = u^T *m eval_mx env A.
  Proof. by rewrite /kn_avg0 /krecip /kn_wsum ev_average wmeanE nw_wts. Qed.

  Lemma ev_avg1 k (A : mexp k n) : eval_mx env (kn_avg1 cfg n A) = eval_mx env A *m u.
  Proof.
    by rewrite /kn_avg1 /krecip evScaleRecip ev_kwsum evMul -nw_wts /nw -scalemxAr.
  Qed.

  (* K_fit_rows_ of both classes and the feature mean: the weighted column means, or zeros *)
  Lemma ev_center_avg0 q (A : mexp n q) :
    eval_mx env (if kn_center cfg then kn_avg0 cfg n A else MZero 1 q)
    = if kn_center cfg then u^T *m eval_mx env A else 0.
  Proof. by case: (kn_center cfg); rewrite ?ev_avg0. Qed.

  (* the centring step  A - 1 rows - cols 1^T + all *)
  Definition centered_mx (k : nat) (A : 'M[F]_(k, n)) (rows : 'rV[F]_n) (all : F) : 'M[F]_(k, n) :=
    A - const_mx 1 *m rows - (if kn_center cfg then A *m u else 0) *m const_mx 1
    + all *: const_mx 1.

  Lemma ev_centered k (A : mexp k n) (rows : mexp 1 n) (all : mexp 1 1) :
    eval_mx env (kn_centered cfg n A rows all)
    = centered_mx (eval_mx env A) (eval_mx env rows) ((eval_mx env all) ord0 ord0).
  Proof.
    rewrite /kn_centered /centered_mx evAdd !evSub evScale !evMul !evOnes /kn_cols.
    by case: (kn_center cfg); rewrite ?ev_avg1 ?evZero.
  Qed.

  Lemma centered_mx_off k (A : 'M[F]_(k, n)) :
    kn_center cfg = false -> centered_mx A 0 ((0 : 'M[F]_(1, 1)) ord0 ord0) = A.
  Proof. by rewrite /centered_mx => ->; rewrite mulmx0 mul0mx !subr0 mxE scale0r addr0. Qed.
End Formulas.

Section KnFormulas.
  Variable F : rcfType.
  Variables (cfg : kn_cfg) (n : nat) (K : 'M[F]_(n, n)) (w : 'cV[F]_n).
  Hypothesis ok : kn_wok cfg w.
  Let ew := kn_effw cfg w.
  Let u := nw ew.

  Definition rows_spec : 'rV[F]_n := if kn_center cfg then u^T *m K else 0.
  Definition all_spec : 'M[F]_(1, 1) := if kn_center cfg then rows_spec *m u else 0.
  Definition scale_spec : 'M[F]_(1, 1) :=
    if kn_trace cfg
    then (\tr (centered_mx cfg w K rows_spec (all_spec ord0 ord0)) / n%:R)%:M
    else 1%:M.

  Let envf := env_of [:: box K; box w].
  Lemma envf_w : envf n 1%N 1%N = w.
  Proof. exact: unbox_box. Qed.
  Lemma envf_K : eval_mx envf (kK n) = K.
  Proof. exact: unbox_box. Qed.

  Lemma ev_rows : eval_mx envf (kn_rows cfg n) = rows_spec.
  Proof. by rewrite /kn_rows (ev_center_avg0 envf_w ok) envf_K. Qed.

  Lemma ev_all : eval_mx envf (kn_all cfg n) = all_spec.
  Proof.
    rewrite /kn_all /all_spec -ev_rows; case: (kn_center cfg) => //.
    exact: (ev_avg1 envf_w ok).
  Qed.

  Lemma ev_kscale : eval_mx envf (kn_scale cfg n) = scale_spec.
  Proof.
    rewrite /kn_scale /scale_spec; case: (kn_trace cfg) => //.
    by rewrite /krecip ev_trace_over (ev_centered envf_w ok) envf_K ev_rows ev_all.
  Qed.

  (* Use as [(kn_fit_mxE _ ok)]: a [//] after [rewrite kn_fit_mxE] also tries to close, by
     conversion, what is left of a goal relating two different fits, and takes seconds to fail. *)
  Lemma kn_fit_mxE : kn_fit_mx cfg K w = (rows_spec, all_spec, scale_spec).
  Proof. by rewrite /kn_fit_mx -/envf ev_rows ev_all ev_kscale. Qed.

  Lemma kn_transform_mxE k (st : kn_st F n) (Kt : 'M[F]_(k, n)) :
    kn_transform_mx cfg w st Kt
    = (st.2 ord0 ord0)^-1 *: centered_mx cfg w Kt st.1.1 (st.1.2 ord0 ord0).
  Proof.
    rewrite /kn_transform_mx /kn_transform; set envt := env_of _.
    have Hw : envt n 1%N 1%N = w by exact: unbox_box.
    rewrite /krecip evScaleRecip (ev_centered Hw ok) /kKt /kRows /kAll /kScale !evVar.
    by rewrite /envt /env_of /= !unbox_box.
  Qed.

  Lemma kn_fit_transform_mxE :
    kn_fit_transform_mx cfg K w
    = (scale_spec ord0 ord0)^-1 *: centered_mx cfg w K rows_spec (all_spec ord0 ord0).
  Proof.
    rewrite /kn_fit_transform_mx -/envf /kn_fit_transform /krecip evScaleRecip.
    by rewrite (ev_centered envf_w ok) envf_K ev_rows ev_all ev_kscale.
  Qed.
End KnFormulas.

Lemma ones_11_ones (F : rcfType) k q (M : 'M[F]_(1, 1)) :
  (const_mx 1 : 'cV[F]_k) *m M *m (const_mx 1 : 'rV[F]_q) = M ord0 ord0 *: const_mx 1.
Proof.
  by apply/matrixP => i j; rewrite !mxE big_ord1 !mxE big_ord1 !mxE mul1r.
Qed.

Section Gram.
  Variable F : rcfType.
  Variables (n p k : nat) (u : 'cV[F]_n) (Phi : 'M[F]_(n, p)) (Psi : 'M[F]_(k, p)).

  (* kernel centring of a Gram matrix is the Gram matrix of the centred features, for ANY
     averaging vector u (mu = u^T Phi) *)
  Lemma centered_gram :
    let mu := u^T *m Phi in
    Psi *m Phi^T - const_mx 1 *m (u^T *m (Phi *m Phi^T)) - (Psi *m Phi^T *m u) *m const_mx 1
    + ((u^T *m (Phi *m Phi^T)) *m u) ord0 ord0 *: const_mx 1
    = (Psi - const_mx 1 *m mu) *m (Phi - const_mx 1 *m mu)^T.
  Proof.
    move=> mu; rewrite -ones_11_ones linearB /= !trmx_mul trmxK trmx_const.
    rewrite mulmxBl !mulmxBr /mu !mulmxA opprB addrA.
    by rewrite [RHS]addrAC; congr (_ + _); rewrite addrAC.
  Qed.
End Gram.

Section KnTheorems.
  Variable F : rcfType.
  Variables (cfg : kn_cfg) (n : nat) (w : 'cV[F]_n).
  Hypothesis ok : kn_wok cfg w.
  Let ew := kn_effw cfg w.

  Definition feat_mu p (Phi : 'M[F]_(n, p)) : 'rV[F]_p :=
    if kn_center cfg then wmean ew Phi else 0.

  Lemma centered_feat p k (Phi : 'M[F]_(n, p)) (Psi : 'M[F]_(k, p)) :
    let K := Phi *m Phi^T in
    centered_mx cfg w (Psi *m Phi^T) (rows_spec cfg K w) ((all_spec cfg K w) ord0 ord0)
    = (Psi - rows_of k (feat_mu Phi)) *m (Phi - rows_of n (feat_mu Phi))^T.
  Proof.
    rewrite /= /all_spec /rows_spec /feat_mu; case ce: (kn_center cfg); last first.
      by rewrite centered_mx_off // !rows_of0 !subr0.
    rewrite /centered_mx ce !rows_ofE wmeanE; exact: centered_gram.
  Qed.

  Lemma kn_center_feature_space p (Phi : 'M[F]_(n, p)) :
    let K := Phi *m Phi^T in
    let mu := feat_mu Phi in
    let st := kn_fit_mx cfg K w in
    st.2 = (if kn_trace cfg
            then (\tr ((Phi - rows_of n mu) *m (Phi - rows_of n mu)^T) / n%:R)%:M else 1%:M)
    /\ forall k (Psi : 'M[F]_(k, p)),
         kn_transform_mx cfg w st (Psi *m Phi^T)
         = (st.2 ord0 ord0)^-1 *: ((Psi - rows_of k mu) *m (Phi - rows_of n mu)^T).
  Proof.
    move=> K mu st; rewrite /st (kn_fit_mxE _ ok) /=; split.
      by rewrite /scale_spec centered_feat.
    by move=> k Psi; rewrite (kn_transform_mxE ok) /= centered_feat.
  Qed.

  (* for ANY square K *)
  Lemma kn_trace_n (K : 'M[F]_(n, n)) :
    kn_trace cfg ->
    let st := kn_fit_mx cfg K w in
    st.2 ord0 ord0 != 0 -> \tr (kn_transform_mx cfg w st K) = n%:R.
  Proof.
    move=> tr st; rewrite /st (kn_fit_mxE _ ok) /= (kn_transform_mxE ok) /= /scale_spec tr.
    rewrite mxtraceZ scalar11; set t := \tr _ => nz.
    have t0 : t != 0 by apply: contraNneq nz => ->; rewrite mul0r.
    have n0 : (n%:R : F) != 0 by apply: contraNneq nz => ->; rewrite invr0 mulr0.
    by rewrite invf_div divfK.
  Qed.

  Lemma kn_no_trace (K : 'M[F]_(n, n)) :
    ~~ kn_trace cfg ->
    let st := kn_fit_mx cfg K w in
    st.2 = 1%:M
    /\ forall k (Kt : 'M[F]_(k, n)),
         kn_transform_mx cfg w st Kt = centered_mx cfg w Kt st.1.1 (st.1.2 ord0 ord0).
  Proof.
    move=> /negbTE nt st; rewrite /st (kn_fit_mxE _ ok) /= /scale_spec nt; split=> [//|k Kt].
    by rewrite (kn_transform_mxE ok) /= scalar11 invr1 scale1r.
  Qed.
End KnTheorems.

Section FeatureRoute.
  Variable F : rcfType.
  Variables (cfg : kn_cfg) (n p k : nat) (w : 'cV[F]_n).
  Variables (Phi : 'M[F]_(n, p)) (Psi : 'M[F]_(k, p)).
  Hypothesis ok : kn_wok cfg w.

  Let envk :=
    env_of [:: box0 F; box w; box0 F; box0 F; box0 F; box0 F; box0 F; box0 F; box Phi; box Psi].
  Lemma envk_w : envk n 1%N 1%N = w.
  Proof. exact: unbox_box. Qed.
  Lemma envk_Phi : eval_mx envk (kPhi n p) = Phi.
  Proof. exact: unbox_box. Qed.
  Lemma envk_Psi : eval_mx envk (kPsi p k) = Psi.
  Proof. exact: unbox_box. Qed.

  Lemma ev_kf_mu : eval_mx envk (kf_mu cfg n p) = feat_mu cfg w Phi.
  Proof. by rewrite /kf_mu (ev_center_avg0 envk_w ok) envk_Phi /feat_mu wmeanE. Qed.

  Lemma ev_kf_cen q (A : mexp q p) :
    eval_mx envk (kf_cen cfg n p A) = eval_mx envk A - rows_of q (feat_mu cfg w Phi).
  Proof. by rewrite /kf_cen evSub evMul evOnes ev_kf_mu rows_ofE. Qed.

  Lemma ev_kf_scale :
    eval_mx envk (kf_scale cfg n p)
    = if kn_trace cfg
      then (\tr ((Phi - rows_of n (feat_mu cfg w Phi)) *m (Phi - rows_of n (feat_mu cfg w Phi))^T)
            / n%:R)%:M
      else 1%:M.
  Proof.
    rewrite /kf_scale; case: (kn_trace cfg); last by [].
    by rewrite /krecip ev_trace_over evMul evTr !ev_kf_cen envk_Phi.
  Qed.

  Lemma kf_transform_eq :
    kf_transform_mx cfg w Phi Psi
    = kn_transform_mx cfg w (kn_fit_mx cfg (Phi *m Phi^T) w) (Psi *m Phi^T).
  Proof.
    have [e2 e3] := kn_center_feature_space ok Phi.
    rewrite e3 e2 /kf_transform_mx -/envk /kf_transform /krecip evScaleRecip.
    by rewrite evMul evTr !ev_kf_cen envk_Phi envk_Psi ev_kf_scale.
  Qed.
End FeatureRoute.

Section Sparse.
  Variable F : rcfType.
  Variables (cfg : kn_cfg) (n m : nat) (w : 'cV[F]_n).
  Variables (Knm : 'M[F]_(n, m)) (Kmm P : 'M[F]_(m, m)).
  Hypothesis ok : kn_wok cfg w.
  Let ew := kn_effw cfg w.

  Definition sk_rows_spec : 'rV[F]_m := if kn_center cfg then wmean ew Knm else 0.
  (* Knm_centered *)
  Definition sk_kc_spec : 'M[F]_(n, m) := Knm - rows_of n sk_rows_spec.
  Definition sk_scale_spec : 'M[F]_(1, 1) :=
    if kn_trace cfg
    then (Num.sqrt (\tr (sk_kc_spec *m P *m sk_kc_spec^T) / n%:R))%:M else 1%:M.

  Let envs := env_of [:: box Knm; box w; box0 F; box0 F; box0 F; box0 F; box Kmm; box P].
  Lemma envs_w : envs n 1%N 1%N = w.
  Proof. exact: unbox_box. Qed.
  Lemma envs_Knm : eval_mx envs (sKnm n m) = Knm.
  Proof. exact: unbox_box. Qed.
  Lemma envs_P : eval_mx envs (sP m) = P.
  Proof. exact: unbox_box. Qed.

  Lemma ev_sk_rows : eval_mx envs (sk_rows cfg n m) = sk_rows_spec.
  Proof. by rewrite /sk_rows (ev_center_avg0 envs_w ok) envs_Knm /sk_rows_spec wmeanE. Qed.

  Lemma ev_sk_kc : eval_mx envs (sk_kc cfg n m) = sk_kc_spec.
  Proof. by rewrite /sk_kc evSub evMul evOnes envs_Knm ev_sk_rows /sk_kc_spec rows_ofE. Qed.

  Lemma ev_sk_scale : eval_mx envs (sk_scale cfg n m) = sk_scale_spec.
  Proof.
    rewrite /sk_scale /sk_scale_spec; case: (kn_trace cfg); last by [].
    rewrite evMap /krecip ev_trace_over /sk_khat !evMul evTr ev_sk_kc envs_P.
    by apply/matrixP => i j; rewrite !mxE !ord1 /= !mulr1n.
  Qed.

  Lemma sk_fit_mxE : sk_fit_mx cfg Knm w Kmm P = (sk_rows_spec, sk_scale_spec).
  Proof. by rewrite /sk_fit_mx -/envs ev_sk_rows ev_sk_scale. Qed.

  Lemma sk_transform_mxE k (st : sk_st F m) (Kt : 'M[F]_(k, m)) :
    sk_transform_mx st Kt = (st.2 ord0 ord0)^-1 *: (Kt - rows_of k st.1).
  Proof.
    rewrite /sk_transform_mx /sk_transform /krecip evScaleRecip evSub evMul evOnes.
    by rewrite /sKt /sRows /kScale !evVar /env_of /= !unbox_box rows_ofE.
  Qed.

  Lemma sk_column_means_zero :
    kn_center cfg -> wmean ew (sk_transform_mx (sk_fit_mx cfg Knm w Kmm P) Knm) = 0.
  Proof.
    move=> ce; rewrite sk_fit_mxE sk_transform_mxE /= /sk_rows_spec ce.
    by rewrite !wmeanE -scalemxAr mulmxBr -!wmeanE wmean_rows_of // subrr scaler0.
  Qed.

  Lemma sk_nystrom_trace_n :
    kn_trace cfg ->
    let st := sk_fit_mx cfg Knm w Kmm P in
    0 < \tr ((Knm - rows_of n st.1) *m P *m (Knm - rows_of n st.1)^T) ->
    let T := sk_transform_mx st Knm in
    \tr (T *m P *m T^T) = n%:R.
  Proof.
    (* scale_^2 = t / n for the trace t of the hypothesis, and T P T^T = Kc P Kc^T / scale_^2 *)
    move=> tr st; rewrite /st sk_fit_mxE /= -/sk_kc_spec => t0.
    rewrite sk_transform_mxE /= -/sk_kc_spec /sk_scale_spec tr scalar11.
    set t := \tr _ in t0 *.
    have n0 : (0 : F) < n%:R.
      rewrite ltr0n lt0n; apply: contraTneq t0 => n0.
      rewrite /t mxtrace_mulC; move: sk_kc_spec; rewrite n0 => A.
      by rewrite thinmx0 mul0mx mxtrace0 ltxx.
    have q0 : 0 < t / n%:R by rewrite divr_gt0.
    set s := Num.sqrt _.
    have s2 : s ^+ 2 = t / n%:R by rewrite sqr_sqrtr // ltW.
    have s0 : s != 0 by rewrite lt0r_neq0 // sqrtr_gt0.
    rewrite linearZ /= -scalemxAl -scalemxAl -scalemxAr scalerA mxtraceZ -/t.
    by rewrite -invfM -expr2 s2 invf_div divfK ?lt0r_neq0.
  Qed.
End Sparse.

Section Penrose.
  Variable F : rcfType.
  Variable m : nat.
  Implicit Types (K P Q : 'M[F]_(m, m)).

  Lemma penrose_unique K P Q : penrose K P -> penrose K Q -> P = Q.
  Proof. by move=> [p1 p2 p3 p4] [q1 q2 q3 q4]; exact: (pinv_uniq p1 p2 p3 p4 q1 q2 q3 q4). Qed.

  Lemma penrose_sym K P : K^T = K -> penrose K P -> P^T = P.
  Proof. by move=> sK [p1 p2 p3 p4]; exact: (pinv_sym sK p1 p2 p3 p4). Qed.
End Penrose.

Section GramFacts.
  Variable F : rcfType.

  (* the transposed form of [MxFrobP.gram_eq0]; it is [MxFrobP.gramT_eq0], which [Pi_fixes] uses *)
  Lemma gram_eq0 n q (B : 'M[F]_(n, q)) : B *m B^T = 0 -> B = 0.
  Proof. exact: gramT_eq0. Qed.
End GramFacts.

Section SparseFeature.
  Variable F : rcfType.
  Variables (cfg : kn_cfg) (n m p : nat) (w : 'cV[F]_n).
  Variables (Phi : 'M[F]_(n, p)) (A : 'M[F]_(m, p)) (P : 'M[F]_(m, m)).
  Hypothesis ok : kn_wok cfg w.
  Hypothesis pe : penrose (A *m A^T) P.
  Let Pi : 'M[F]_(p, p) := A^T *m P *m A.
  Let Phic := Phi - rows_of n (feat_mu cfg w Phi).

  Lemma gram_sym : (A *m A^T)^T = A *m A^T.
  Proof. by rewrite trmx_mul trmxK. Qed.

  Lemma Pi_idem : Pi *m Pi = Pi.
  Proof.
    have [_ p2 _ _] := pe.
    have -> : Pi *m Pi = A^T *m (P *m (A *m A^T) *m P) *m A by rewrite /Pi !mulmxA.
    by rewrite p2.
  Qed.

  Lemma Pi_sym : Pi^T = Pi.
  Proof. by rewrite /Pi !trmx_mul trmxK (penrose_sym gram_sym pe) mulmxA. Qed.

  (* Pi fixes the active features: it is the orthogonal projector onto their row space *)
  Lemma Pi_fixes : A *m Pi = A.
  Proof.
    have [p1 p2 p3 p4] := pe; have sP := penrose_sym gram_sym pe.
    set K := A *m A^T in p1 p2 p3 p4.
    apply/eqP; rewrite -subr_eq0; apply/eqP; apply: gramT_eq0.
    rewrite linearB /= trmx_mul Pi_sym mulmxBl !mulmxBr.
    have -> : A *m Pi *m (Pi *m A^T) = A *m (Pi *m Pi) *m A^T by rewrite !mulmxA.
    rewrite Pi_idem.
    have -> : A *m Pi *m A^T = K *m P *m K by rewrite /Pi /K !mulmxA.
    have -> : A *m (Pi *m A^T) = K *m P *m K by rewrite /Pi /K !mulmxA.
    by rewrite -/K p1 !subrr.
  Qed.

  Lemma sk_feature_space :
    let st := sk_fit_mx cfg (Phi *m A^T) w (A *m A^T) P in
    let Kc := Phi *m A^T - rows_of n st.1 in
    [/\ Kc = Phic *m A^T,
        Kc *m P *m Kc^T = (Phic *m Pi) *m (Phic *m Pi)^T,
        0 <= \tr (Kc *m P *m Kc^T)
      & st.2 = if kn_trace cfg
               then (Num.sqrt (\tr ((Phic *m Pi) *m (Phic *m Pi)^T) / n%:R))%:M else 1%:M].
  Proof.
    move=> st Kc.
    have eKc : Kc = Phic *m A^T.
      rewrite /Kc /st (sk_fit_mxE _ _ _ ok) /= /sk_rows_spec /Phic /feat_mu !rows_ofE.
      case: (kn_center cfg); last by rewrite !mulmx0 !subr0.
      by rewrite mulmxBl !wmeanE !mulmxA.
    have eH : Kc *m P *m Kc^T = (Phic *m Pi) *m (Phic *m Pi)^T.
      rewrite eKc [(Phic *m Pi)^T]trmx_mul Pi_sym mulmxA -(mulmxA Phic Pi Pi) Pi_idem.
      by rewrite trmx_mul trmxK /Pi !mulmxA.
    split=> //; first by rewrite eH mxtrace_gramT_ge0.
    rewrite /st (sk_fit_mxE _ _ _ ok) /= /sk_scale_spec -/(sk_kc_spec _ _ _) -eH.
    by rewrite /Kc /st (sk_fit_mxE _ _ _ ok).
  Qed.
End SparseFeature.

Lemma kn_nonvacuous (F : rcfType) :
  let cfg := KnCfg true true false in
  let Phi : 'M[F]_(2, 1) := \matrix_(i, j) (i : nat)%:R *+ 2 in
  let w : 'cV[F]_2 := 0 in
  [/\ kn_wok cfg w,
      (kn_fit_mx cfg (Phi *m Phi^T) w).2 = 1%:M,
      penrose (1%:M : 'M[F]_1) 1%:M
    & let st := sk_fit_mx cfg (Phi *m (1%:M : 'M[F]_1)^T) w 1%:M 1%:M in
      \tr ((Phi *m (1%:M)^T - rows_of 2 st.1) *m 1%:M *m (Phi *m (1%:M)^T - rows_of 2 st.1)^T) = 2%:R].
Proof.
  move=> cfg Phi w.
  have two := two_neq0 F.
  have ok : kn_wok cfg w by rewrite /kn_wok /kn_effw /= wsum_ones.
  have m1 : wmean (const_mx 1) Phi = const_mx 1 := ex02_mean F.
  have cen : Phi - rows_of 2 (const_mx 1) = \matrix_(i, j) ((i : nat)%:R *+ 2 - 1).
    by apply/matrixP => i j; rewrite !mxE.
  have trc : \tr ((Phi - rows_of 2 (const_mx 1)) *m (Phi - rows_of 2 (const_mx 1))^T) = 2%:R.
    rewrite cen /mxtrace !big_ord_recl big_ord0 !mxE !big_ord_recl !big_ord0 !mxE /bump /=.
    by rewrite mul0rn sub0r mulrNN mulr1 mulr2n addrK mulr1 !addr0.
  split=> //.
  - have [-> _] := kn_center_feature_space ok Phi.
    by rewrite /= /feat_mu /= /kn_effw /= m1 trc divff.
  - by split; rewrite ?mulmx1 // trmx1.
  - cbv zeta; rewrite (sk_fit_mxE _ _ _ ok) /= /sk_rows_spec /= /kn_effw /= trmx1 !mulmx1.
    by rewrite m1 trc.
Qed.
