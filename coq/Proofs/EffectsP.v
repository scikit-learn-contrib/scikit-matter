(* Soundness of the effect analyser of Model/Effects.v (stdlib style).

   Main result [safe_sound]: if [safe p = true] then, from any initial state in which only
   the declared roots reference Caller cells, after ANY history (any finite sequence of
   statements of ctx ++ body) ANY execution of the entry point (any finite sequence of
   statements of body, every resolution of every MayAlias) leaves every Caller cell and
   the hyper-parameter map unchanged. *)
From Coq Require Import List PArith Bool Arith Lia MSets.MSetPositive.
Import ListNotations.
From Verif Require Import Effects.

(* the heap changes in two ways: Fresh appends a cell (snoc), Write replaces one (set_nth) *)
Lemma nth_error_snoc_cases :
  forall (h : list cell) d l c,
    nth_error (h ++ [d]) l = Some c ->
    nth_error h l = Some c \/ (l = length h /\ c = d).
Proof.
  intros h d l c H.
  destruct (Nat.lt_ge_cases l (length h)) as [Hlt | Hge].
  - left. rewrite nth_error_app1 in H by exact Hlt. exact H.
  - right. rewrite nth_error_app2 in H by exact Hge.
    destruct (l - length h) as [| k] eqn:E.
    + cbn in H. inversion H. split; [lia | reflexivity].
    + cbn in H. destruct k; discriminate H.
Qed.

Lemma nth_error_snoc_keep :
  forall (h : list cell) d l c, nth_error h l = Some c -> nth_error (h ++ [d]) l = Some c.
Proof.
  intros h d l c H. rewrite nth_error_app1; [exact H |].
  apply nth_error_Some. rewrite H. discriminate.
Qed.

Lemma set_nth_other :
  forall h l0 d l, l <> l0 -> nth_error (set_nth h l0 d) l = nth_error h l.
Proof.
  induction h as [| x t IH]; intros l0 d l Hne.
  - reflexivity.
  - destruct l0 as [| l0']; destruct l as [| l']; cbn.
    + contradiction Hne; reflexivity.
    + reflexivity.
    + reflexivity.
    + apply IH. intro E. apply Hne. now f_equal.
Qed.

Lemma set_nth_same :
  forall h l0 d c0, nth_error h l0 = Some c0 -> nth_error (set_nth h l0 d) l0 = Some d.
Proof.
  induction h as [| x t IH]; intros l0 d c0 H.
  - destruct l0; discriminate H.
  - destruct l0 as [| l0']; cbn.
    + reflexivity.
    + cbn in H. eapply IH. exact H.
Qed.

Lemma set_nth_owner :
  forall h l0 c0 v l c,
    nth_error h l0 = Some c0 ->
    nth_error (set_nth h l0 (mkCell (own c0) v)) l = Some c ->
    exists c', nth_error h l = Some c' /\ own c' = own c.
Proof.
  intros h l0 c0 v l c H0 H.
  destruct (Nat.eq_dec l l0) as [E | Hne].
  - subst l. rewrite (set_nth_same _ _ _ _ H0) in H. inversion H. subst c.
    exists c0. split; [exact H0 | reflexivity].
  - rewrite set_nth_other in H by exact Hne. exists c. split; [exact H | reflexivity].
Qed.

Lemma upd_same : forall A (f : positive -> A) k v, upd f k v k = v.
Proof. intros. unfold upd. now rewrite Pos.eqb_refl. Qed.

Lemma upd_other : forall A (f : positive -> A) k v k', k' <> k -> upd f k v k' = f k'.
Proof.
  intros A f k v k' Hne. unfold upd.
  destruct (Pos.eqb k' k) eqn:E; [apply Pos.eqb_eq in E; contradiction | reflexivity].
Qed.

Lemma of_list_in : forall l x, In x l -> PS.In x (of_list l).
Proof.
  induction l as [| y t IH]; intros x H; [contradiction |].
  cbn. apply PS.add_spec. destruct H as [E | H]; [left; now subst | right; now apply IH].
Qed.

Definition tle (t t' : taint) : Prop :=
  (forall x, PS.In x (tv t) -> PS.In x (tv t')) /\ (forall x, PS.In x (ta t) -> PS.In x (ta t')).

Lemma tle_trans : forall t1 t2 t3, tle t1 t2 -> tle t2 t3 -> tle t1 t3.
Proof. intros t1 t2 t3 [V1 A1] [V2 A2]. split; auto. Qed.

Lemma tstep_mono : forall t i, tle t (tstep t i).
Proof.
  intros t i.
  destruct i; cbn; try (split; intros z H; exact H);
    match goal with |- context [if ?b then _ else _] => destruct b end;
    split; cbn; intros z H; try exact H; apply PS.add_spec; now right.
Qed.

Lemma tpass_mono : forall l t, tle t (tpass l t).
Proof.
  induction l as [| i l IH]; intros t; cbn; [split; intros z H; exact H |].
  eapply tle_trans; [apply tstep_mono | apply IH].
Qed.

Lemma titer_mono : forall n l t, tle t (titer n l t).
Proof.
  induction n as [| n IH]; intros l t; cbn; [split; intros z H; exact H |].
  destruct (Nat.eqb (tsize (tpass l t)) (tsize t)); [apply tpass_mono |].
  eapply tle_trans; [apply tpass_mono | apply IH].
Qed.

(* whatever references a Caller cell through f lies in T *)
Definition refs_in (f : positive -> option loc) (h : list cell) (T : positive -> Prop) : Prop :=
  forall k l c, f k = Some l -> nth_error h l = Some c -> own c = Caller -> T k.

(* [inv t s]: the variables and the attributes of s reference Caller cells only from the sets of t *)
Definition inv (t : taint) (s : state) : Prop :=
  (forall x l c, env s x = Some l -> nth_error (heap s) l = Some c -> own c = Caller -> PS.In x (tv t)) /\
  (forall a l c, ats s a = Some l -> nth_error (heap s) l = Some c -> own c = Caller -> PS.In a (ta t)).

Lemma inv_refs :
  forall t s, inv t s <-> refs_in (env s) (heap s) (fun x => PS.In x (tv t)) /\
                          refs_in (ats s) (heap s) (fun a => PS.In a (ta t)).
Proof. reflexivity. Qed.

Lemma refs_in_upd :
  forall f h (T : positive -> Prop) k o,
    refs_in f h T ->
    (forall l c, o = Some l -> nth_error h l = Some c -> own c = Caller -> T k) ->
    refs_in (upd f k o) h T.
Proof.
  intros f h T k o H Ho k' l c He.
  destruct (Pos.eq_dec k' k) as [-> | Hne];
    [rewrite upd_same in He | rewrite upd_other in He by exact Hne]; eauto.
Qed.

(* k := what g holds at k' *)
Lemma refs_in_copy :
  forall f g h (T T' : positive -> Prop) k k',
    refs_in f h T -> refs_in g h T' -> (T' k' -> T k) -> refs_in (upd f k (g k')) h T.
Proof.
  intros f g h T T' k k' Hf Hg Hi. apply refs_in_upd; [exact Hf |].
  intros l c He Hn Ho. apply Hi. eapply Hg; eassumption.
Qed.

(* a new Local cell, referenced by nobody or by k only *)
Lemma refs_in_snoc :
  forall f h (T : positive -> Prop) v, refs_in f h T -> refs_in f (h ++ [mkCell Local v]) T.
Proof.
  intros f h T v H k l c He Hn Ho.
  apply nth_error_snoc_cases in Hn. destruct Hn as [Hn | [_ ->]]; [eauto | discriminate Ho].
Qed.

Lemma refs_in_alloc :
  forall f h (T : positive -> Prop) k v,
    refs_in f h T -> refs_in (upd f k (Some (length h))) (h ++ [mkCell Local v]) T.
Proof.
  intros f h T k v H. apply refs_in_upd; [now apply refs_in_snoc |].
  intros l c E Hn Ho. injection E as <-.
  rewrite nth_error_app2, Nat.sub_diag in Hn by lia. injection Hn as <-. discriminate Ho.
Qed.

Lemma refs_in_write :
  forall f h (T : positive -> Prop) l0 c0 v,
    nth_error h l0 = Some c0 -> refs_in f h T -> refs_in f (set_nth h l0 (mkCell (own c0) v)) T.
Proof.
  intros f h T l0 c0 v H0 H k l c He Hn Ho.
  destruct (set_nth_owner _ _ _ _ _ _ H0 Hn) as [c' [Hn' Ho']].
  eapply H; [exact He | exact Hn' | congruence].
Qed.

Lemma implb_mem :
  forall y x sy sx, implb (PS.mem y sy) (PS.mem x sx) = true -> PS.In y sy -> PS.In x sx.
Proof.
  intros y x sy sx H Hy. apply PS.mem_spec in Hy. rewrite Hy in H. cbn in H. now apply PS.mem_spec.
Qed.

Lemma step_inv :
  forall t i s s', closed_stmt t i = true -> inv t s -> step i s s' -> inv t s'.
Proof.
  intros t i s s' Hcl I Hst. apply inv_refs in I. destruct I as [Iv Ia]. apply inv_refs.
  destruct Hst as [x s v | x y s | x y s | x y s v | x st s l0 c0 v Hx Hc0 | x st s Hx
                   | q st s v | a x s | x a s]; cbn in Hcl; cbn [env ats heap]; split;
    try assumption.
  all: try first [now apply refs_in_alloc | now apply refs_in_snoc | now apply refs_in_write].
  (* what remains copies a reference: Alias, MayAlias (same buffer), StoreAttr, LoadAttr *)
  - exact (refs_in_copy _ _ _ _ _ _ _ Iv Iv (implb_mem _ _ _ _ Hcl)).
  - exact (refs_in_copy _ _ _ _ _ _ _ Iv Iv (implb_mem _ _ _ _ Hcl)).
  - exact (refs_in_copy _ _ _ _ _ _ _ Ia Iv (implb_mem _ _ _ _ Hcl)).
  - exact (refs_in_copy _ _ _ _ _ _ _ Iv Ia (implb_mem _ _ _ _ Hcl)).
Qed.

Lemma run_inv :
  forall t l s s',
    (forall i, In i l -> closed_stmt t i = true) -> inv t s -> run l s s' -> inv t s'.
Proof.
  intros t l s s' Hcl Hinv Hrun. induction Hrun as [s | i s s' s'' Hin Hst _ IH].
  - exact Hinv.
  - apply IH. eapply step_inv; [apply Hcl; exact Hin | exact Hinv | exact Hst].
Qed.

Lemma caller_unchanged_refl : forall s, caller_unchanged s s.
Proof. intros s l c H _. exact H. Qed.

Lemma caller_unchanged_trans :
  forall s1 s2 s3, caller_unchanged s1 s2 -> caller_unchanged s2 s3 -> caller_unchanged s1 s3.
Proof.
  intros s1 s2 s3 H12 H23 l c Hn Ho. apply H23; [apply H12; assumption | exact Ho].
Qed.

Lemma caller_unchanged_heap :
  forall s s', heap s' = heap s -> caller_unchanged s s'.
Proof. intros s s' E l c H _. rewrite E. exact H. Qed.

Lemma step_effect :
  forall t i s s', inv t s -> ok_stmt t i = true -> step i s s' ->
                   caller_unchanged s s' /\ params_unchanged s s'.
Proof.
  intros t i s s' [Iv Ia] Hok Hst.
  destruct Hst as [x s v | x y s | x y s | x y s v | x st s l0 c0 v Hx Hc0 | x st s Hx
                   | q st s v | a x s | x a s]; cbn in Hok; try discriminate Hok;
    (split; [| intro; reflexivity]); try (now apply caller_unchanged_heap).
  - intros l c Hn _. now apply nth_error_snoc_keep.
  - intros l c Hn _. now apply nth_error_snoc_keep.
  - (* Write on an untainted variable: the cell written is not a Caller cell *)
    intros l c Hn Ho. cbn [heap].
    assert (Hne : l <> l0).
    { intros ->. rewrite Hc0 in Hn. injection Hn as ->.
      apply (Iv x l0 c Hx Hc0), PS.mem_spec in Ho. rewrite Ho in Hok. discriminate Hok. }
    rewrite set_nth_other by exact Hne. exact Hn.
Qed.

Lemma run_effect :
  forall t l s s',
    (forall i, In i l -> closed_stmt t i = true) ->
    (forall i, In i l -> ok_stmt t i = true) ->
    inv t s -> run l s s' ->
    caller_unchanged s s' /\ params_unchanged s s'.
Proof.
  intros t l s s' Hcl Hok Hinv Hrun. induction Hrun as [s | i s s' s'' Hin Hst _ IH].
  - split; [apply caller_unchanged_refl | intro; reflexivity].
  - destruct (step_effect t i s s' Hinv (Hok i Hin) Hst) as [C1 P1].
    assert (Hinv' : inv t s') by (eapply step_inv; [apply Hcl; exact Hin | exact Hinv | exact Hst]).
    destruct (IH Hinv') as [C2 P2].
    split.
    + eapply caller_unchanged_trans; eassumption.
    + intro q. rewrite P2. apply P1.
Qed.

Lemma init_inv : forall p s, init_ok p s -> inv (analyse p) s.
Proof.
  intros p s [Hv Ha]. unfold analyse.
  destruct (titer_mono (S (length (all_stmts p))) (all_stmts p) (taint0 p)) as [Mv Ma].
  split.
  - intros x l c He Hn Ho. apply Mv. cbn. apply of_list_in. eapply Hv; eassumption.
  - intros a l c He Hn Ho. apply Ma. cbn. apply of_list_in. eapply Ha; eassumption.
Qed.

Lemma history_inv :
  forall p s0 s1, closed_ok p = true -> init_ok p s0 -> run (all_stmts p) s0 s1 -> inv (analyse p) s1.
Proof.
  intros p s0 s1 Hcl Hinit Hrun. unfold closed_ok in Hcl. rewrite forallb_forall in Hcl.
  eapply run_inv; [exact Hcl | apply init_inv; exact Hinit | exact Hrun].
Qed.

Theorem safe_sound :
  forall p s0 s1 s2,
    safe p = true ->
    init_ok p s0 ->
    run (ctx p ++ body p) s0 s1 ->
    run (body p) s1 s2 ->
    caller_unchanged s1 s2 /\ params_unchanged s1 s2.
Proof.
  intros p s0 s1 s2 Hsafe Hinit Hhist Hexec.
  unfold safe in Hsafe. apply andb_true_iff in Hsafe. destruct Hsafe as [Hcl Hok].
  pose proof (history_inv p s0 s1 Hcl Hinit Hhist) as I1.
  rewrite forallb_forall in Hcl, Hok.
  apply (run_effect (analyse p) (body p)); auto.
  intros i Hin. apply Hcl. unfold all_stmts. apply in_or_app. now right.
Qed.

Corollary safe_sound_fresh :
  forall p s0 s1,
    safe p = true -> init_ok p s0 -> run (body p) s0 s1 ->
    caller_unchanged s0 s1 /\ params_unchanged s0 s1.
Proof.
  intros p s0 s1 Hsafe Hinit Hexec.
  eapply safe_sound; [exact Hsafe | exact Hinit | apply run_nil | exact Hexec].
Qed.

Lemma bad_site_nil_ok : forall t i, bad_site t i = [] <-> ok_stmt t i = true.
Proof.
  intros t i. destruct i; cbn; try (split; reflexivity).
  - destruct (PS.mem x (tv t)); cbn; split; intro H; try reflexivity; discriminate H.
  - split; intro H; discriminate H.
Qed.

Lemma safe_iff_no_sites :
  forall p, safe p = true <-> closed_ok p = true /\ bad_sites p = [].
Proof.
  intro p. unfold safe, closed_ok, bad_sites. rewrite andb_true_iff. apply and_iff_compat_l.
  induction (body p) as [| i l IH]; cbn [forallb flat_map]; [tauto |].
  rewrite andb_true_iff, IH, <- bad_site_nil_ok.
  split; [intros [-> ->]; reflexivity | apply app_eq_nil].
Qed.

Theorem untainted_attr_not_caller :
  forall p s0 s1 a l c,
    closed_ok p = true -> init_ok p s0 -> run (ctx p ++ body p) s0 s1 ->
    PS.mem a (ta (analyse p)) = false ->
    ats s1 a = Some l -> nth_error (heap s1) l = Some c -> own c <> Caller.
Proof.
  intros p s0 s1 a l c Hcl Hinit Hrun Hmem Ha Hn Ho.
  destruct (history_inv p s0 s1 Hcl Hinit Hrun) as [_ Ia].
  apply (Ia a l c Ha Hn), PS.mem_spec in Ho. congruence.
Qed.
