(* C04: properties of the resolution rule of a fractional n_components (Model/PCovRFrac.v).
   Stdlib style. *)
From Coq Require Import ZArith QArith List Bool Lia.
From Verif Require Import PCovRFrac.
Import ListNotations.

(* every entry before the returned index is <= f, the entry at it (if any) is > f *)
Lemma ssr_before (f : Q) (c : list Q) (j : nat) :
  (j < searchsorted_right_q f c)%nat -> (nth j c 0 <= f)%Q.
Proof.
  revert j; induction c as [|x t IH]; intros j Hj; cbn [searchsorted_right_q] in Hj.
  - lia.
  - destruct (Qle_bool x f) eqn:E; [|lia].
    destruct j as [|j]; cbn [nth].
    + now apply Qle_bool_iff.
    + apply IH; lia.
Qed.

Lemma ssr_at (f : Q) (c : list Q) :
  (searchsorted_right_q f c < length c)%nat -> (f < nth (searchsorted_right_q f c) c 0)%Q.
Proof.
  induction c as [|x t IH]; cbn [searchsorted_right_q length]; intros H.
  - lia.
  - destruct (Qle_bool x f) eqn:E; cbn [nth].
    + apply IH; lia.
    + apply Qnot_le_lt; intros Hle; apply Qle_bool_iff in Hle; congruence.
Qed.

(* it is the SMALLEST such index *)
Lemma ssr_least (f : Q) (c : list Q) (i : nat) :
  (i < length c)%nat -> (f < nth i c 0)%Q -> (searchsorted_right_q f c <= i)%nat.
Proof.
  intros Hi Hf; destruct (Nat.le_gt_cases (searchsorted_right_q f c) i) as [|Hgt]; [assumption|].
  exfalso; apply (Qlt_not_le _ _ Hf); now apply ssr_before.
Qed.

(* some entry exceeds f (the last cumulative ratio is 1 > f): the index is inside the list *)
Lemma ssr_inside (f : Q) (c : list Q) (i : nat) :
  (i < length c)%nat -> (f < nth i c 0)%Q -> (searchsorted_right_q f c < length c)%nat.
Proof. intros Hi Hf; pose proof (ssr_least f c i Hi Hf); lia. Qed.

(* the resolved number of components: the smallest k >= 1 whose cumulative explained-variance
   ratio exceeds f; it never exceeds the number of eigenvalues when some cumulative ratio does *)
Theorem resolve_q_spec (f : Q) (sv : list Q) (n1 : Q) :
  let c := ratio_cumsum_q sv n1 in
  let k := resolve_q f sv n1 in
  (1 <= k)%nat
  /\ (forall j, (S j < k)%nat -> (nth j c 0 <= f)%Q)
  /\ ((k <= length c)%nat -> (f < nth (k - 1) c 0)%Q)
  /\ (forall k', (1 <= k' <= length c)%nat -> (f < nth (k' - 1) c 0)%Q -> (k <= k')%nat).
Proof.
  intros c k; unfold k, resolve_q; fold c.
  split; [lia|]; split; [|split].
  - intros j Hj; apply ssr_before; lia.
  - intros Hk; replace (S (searchsorted_right_q f c) - 1)%nat with (searchsorted_right_q f c) by lia.
    apply ssr_at; lia.
  - intros k' Hk' Hf.
    assert (searchsorted_right_q f c <= k' - 1)%nat by (apply ssr_least; [lia|assumption]).
    lia.
Qed.

Theorem resolve_q_bound (f : Q) (sv : list Q) (n1 : Q) (i : nat) :
  let c := ratio_cumsum_q sv n1 in
  (i < length c)%nat -> (f < nth i c 0)%Q -> (resolve_q f sv n1 <= length c)%nat.
Proof.
  intros c Hi Hf; unfold resolve_q; fold c.
  pose proof (ssr_inside f c i Hi Hf); lia.
Qed.

Lemma cumsum_q_length (acc : Q) (l : list Q) : length (cumsum_q acc l) = length l.
Proof. revert acc; induction l as [|x t IH]; intros acc; cbn; [reflexivity|now rewrite IH]. Qed.

Theorem ratio_cumsum_q_length (sv : list Q) (n1 : Q) : length (ratio_cumsum_q sv n1) = length sv.
Proof. unfold ratio_cumsum_q; now rewrite cumsum_q_length, !map_length. Qed.

(* non-vacuity / the side="right" corner: eigenvalues 5,3,1,1 (n_samples = 4), f = 9/10: the
   cumulative ratios are 1/2, 4/5, 9/10, 1; the third EQUALS f, so it still counts as "<= f" and
   four components are kept (f = 89/100 gives three) *)
Example resolve_q_example :
  resolve_q (9 # 10) [5; 3; 1; 1]%Q 3 = 4%nat /\ resolve_q (89 # 100) [5; 3; 1; 1]%Q 3 = 3%nat
  /\ (9 # 10 < nth 3 (ratio_cumsum_q [5; 3; 1; 1]%Q 3) 0)%Q.
Proof. vm_compute; repeat split; reflexivity. Qed.
