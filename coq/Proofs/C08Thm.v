(* C08: chains of warm-started fits of FPS (exact model), Voronoi FPS and oracle-stream scorers
   (CUR family).  Each chain is HistoryP.chain at that scorer, so C08.v instantiates
   chain_equals_cold.  Also the scorer invariant of Voronoi FPS, and FPS re-initialised with its
   own selections. *)
From Verif Require Import ListX Greedy FPS Voronoi Select VoronoiP HistoryP C02Thm.

Section FPS08.
  Variables (cs : list (list Z)) (ycand : option (list (list Z))).

  Definition fps_chain (g : fps_g) (sched : list nat) : fps_g :=
    fold_left (fun g nj => fst (fps_run cs ycand NoThr nj g)) sched g.

  (* FPS initialised with its own selected prefix starts from the very state the cold fit had *)
  Theorem fps_init_prefix i0 k :
    let g := fst (fps_fit cs ycand [i0] NoThr k) in
    fps_init cs ycand (sel g) = g.
  Proof using.
    intros g. subst g. unfold fps_fit, fps_run, fps_g.
    destruct (run_is_fold dst dscore (dupd (fps_norms cs) (fps_cross cs)) cs ycand
                (k - length (sel (fps_init cs ycand [i0]))) (fps_init cs ycand [i0])) as (new & H1 & H2).
    rewrite H1, H2. change (sel (fps_init cs ycand [i0])) with [i0].
    unfold fps_init. rewrite fold_left_app. reflexivity.
  Qed.
End FPS08.

Section Vor08.
  Variables (cs : list (list Z)) (d : nat) (ycand : option (list (list Z))).
  Hypothesis Hd : dims d cs.
  Variable br : nat -> nat -> bool.
  Notation n := (length cs).

  Definition VP (s : vst) : Prop := exists sl, VInv cs s sl.
  Lemma VP_len s : VP s -> length (vscore s) = n.
  Proof. intros (sl & _ & _ & H & _). unfold vscore. now rewrite map_length. Qed.
  Lemma VP_upd s i : VP s -> (i < n)%nat -> VP (vupd cs br s i).
  Proof.
    intros (sl & HV) Hi. exists (sl ++ [i]).
    exact (proj1 (vupd_inv cs d Hd br s sl i HV Hi)).
  Qed.

  Definition vor_chain (g : vor_g) (sched : list nat) : vor_g :=
    fold_left (fun g nj => fst (vor_run cs br ycand NoThr nj g)) sched g.
End Vor08.

Section Stream08.
  Variables (cand : list (list Z)) (ycand : option (list (list Z))).

  Definition s_chain (g : gst stream) (sched : list nat) : gst stream :=
    fold_left (fun g nj => fst (s_run cand ycand NoThr (nj - length (sel g)) g)) sched g.
End Stream08.
