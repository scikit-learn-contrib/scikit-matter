(* C01: theorems about the buffer-level model Model/SelBuf.v, for every threshold
   test, every score stream, every capacity.

   During a search the buffers are a function [b_of] of the selections made so far, first_score_
   and the score vectors still to come; every operation of the model has one equation on that
   form, and the loop is followed on it ([b_run_of], [bfit_run]). *)
From Verif Require Import ListX Greedy Select ListXP C01Thm SelBuf.

Lemma set_nth_middle {A} (s r : list A) d x p :
  p = length s -> set_nth p x (s ++ d :: r) = Some ((s ++ [x]) ++ r).
Proof.
  intros ->. unfold set_nth. rewrite app_length. cbn [length].
  destruct (Nat.ltb_spec (length s) (length s + S (length r))) as [_|H]; [|lia].
  f_equal. induction s as [|a s IH]; cbn; [reflexivity|]. now rewrite IH.
Qed.

Section SelBufP.
  Variable cand : list (list Z).
  Variable ycand : option (list (list Z)).
  Notation n := (length cand).
  Notation cx := (fun i => nth i cand []).
  Definition ymap (s : list nat) : option (list (list Z)) :=
    match ycand with Some y => Some (map (fun i => nth i y []) s) | None => None end.
  Definition ypad (s : list nat) (m : nat) : option (list (list Z)) :=
    match ycand with
    | Some y => Some (map (fun i => nth i y []) s ++ repeat (zy ycand) m)
    | None => None end.

  Notation b_post := (b_post cand ycand).
  Notation b_best := (b_best cand).
  Notation b_run := (b_run cand ycand).
  Notation b_inits := (b_inits cand ycand).
  Notation bfit := (bfit cand ycand).

  (* state of a fitted object whose buffers are consistent *)
  Definition BOk (b : bst) : Prop :=
    NoDup (b_idx b) /\ in_rng n (b_idx b) /\ b_n b = length (b_idx b) /\
    b_x b = map cx (b_idx b) /\ b_y b = ymap (b_idx b).

  (* the buffers during a search with capacity K, after the selections s *)
  Definition b_of (K : nat) (s : list nat) (f : option Z) (str : stream) : bst :=
    mk_bst (length s) (s ++ repeat O (K - length s)) (map cx s ++ repeat (zx cand) (K - length s))
           (ypad s (K - length s)) f str.

  (* the same as a predicate on a buffer state b: b is [b_of K s] of its own first_score_ and
     stream ([LInv_of]), with s duplicate-free, in range and within the capacity *)
  Definition LInv (K : nat) (b : bst) (s : list nat) : Prop :=
    NoDup s /\ in_rng n s /\ (length s <= K)%nat /\ b_n b = length s /\
    b_idx b = s ++ repeat O (K - length s) /\
    b_x b = map cx s ++ repeat (zx cand) (K - length s) /\
    b_y b = ypad s (K - length s).

  Lemma LInv_of K b s : LInv K b s -> b = b_of K s (b_first b) (b_str b).
  Proof. intros (_ & _ & _ & A & B & C & D). destruct b; cbn in *. now subst. Qed.

  Lemma b_of_snoc K s i f str : (length s < K)%nat ->
    b_of K s f str = mk_bst (length s) (s ++ repeat O (S (K - length (s ++ [i]))))
                       (map cx s ++ repeat (zx cand) (S (K - length (s ++ [i]))))
                       (ypad s (S (K - length (s ++ [i])))) f str.
  Proof.
    intros H. unfold b_of. rewrite app_length. cbn [length].
    now replace (S (K - (length s + 1))) with (K - length s)%nat by lia.
  Qed.

  Lemma b_post_of K s f str i : (length s < K)%nat -> (i < n)%nat ->
    b_post (b_of K s f str) i = Ok (b_of K (s ++ [i]) f str).
  Proof.
    intros Hlt Hi. rewrite (b_of_snoc K s i) by exact Hlt. unfold SelBuf.b_post, b_of, ypad; cbn.
    destruct (Nat.leb_spec n i) as [H|_]; [lia|].
    rewrite !set_nth_middle by now rewrite ?map_length.
    rewrite !map_app, app_length, Nat.add_1_r. cbn [map length].
    destruct ycand as [y|]; [|reflexivity].
    now rewrite set_nth_middle, map_app by now rewrite map_length.
  Qed.

  Lemma b_truncate_of K j s f str : (j <= length s <= K)%nat ->
    b_truncate j (b_of K s f str) =
    Ok (mk_bst (length s) (firstn j s) (map cx s) (ymap (firstn j s)) f str).
  Proof.
    intros [Hj HK]. unfold b_truncate, b_of; cbn [b_x b_n b_idx b_y b_first b_str].
    rewrite app_length, map_length. destruct (Nat.ltb_spec (length s + length (repeat (zx cand) (K - length s))) (length s)); [lia|].
    do 2 f_equal.
    - now apply firstn_app_le.
    - rewrite <- (map_length cx s) at 1. apply firstn_app_exact.
    - unfold ypad, ymap. destruct ycand; [|reflexivity].
      now rewrite firstn_app_le, firstn_map by (now rewrite map_length).
  Qed.

  (* the decision of _get_best_new_selection on the abstract state: trace entry and latch *)
  Definition pick (tst : tstfun) (f : option Z) (s : list nat) (sc : list Z)
    : option (tentry * option Z) :=
    match amax (mask s sc) with
    | None => None
    | Some (i, v) =>
        Some match tst with
             | None => ((i, v, 0, true), f)
             | Some test => let f' := match f with Some f => f | None => v end in
                            ((i, v, f', negb (test f' v)), Some f')
             end
    end.

  Lemma b_best_of tst K s f sc rest : length sc = n ->
    b_best tst (b_of K s f (sc :: rest)) =
    match pick tst f s sc with
    | None => Err EOut
    | Some (te, f') => Ok (if te_kept te then Some (te_idx te) else None, te, b_of K s f' rest)
    end.
  Proof.
    intros Hl. unfold SelBuf.b_best, pick, b_of; cbn. rewrite Hl, Nat.eqb_refl, firstn_app_exact. cbn.
    destruct (amax _) as [[i v]|]; [|reflexivity]. destruct tst as [test|]; [|reflexivity].
    now destruct (test _ v).
  Qed.

  Lemma pick_spec tst f s sc te f' :
    pick tst f s sc = Some (te, f') ->
    (te_idx te < length sc)%nat /\ ~ In (te_idx te) s /\
    (forall test, tst = Some test -> te_below test te = negb (te_kept te)) /\
    (te_kept te = false -> has_tst tst = true).
  Proof.
    unfold pick. destruct (amax _) as [[i v]|] eqn:Ea; [|discriminate].
    apply amax_mask_spec in Ea as (Hi & Hns & _).
    destruct tst as [test|]; intros [= <- <-]; (split; [exact Hi|split; [exact Hns|split]]);
      try discriminate; try reflexivity.
    intros test' [= <-]. unfold te_below, te_kept; cbn. now rewrite Bool.negb_involutive.
  Qed.

  Definition kept_idx (tr : list tentry) : list nat := map te_idx (filter te_kept tr).

  (* what the loop leaves behind: [s'] all selections, reported through the truncated views
     when the threshold stopped the search at loop counter j + (number of kept steps) *)
  Definition run_post (tst : tstfun) (K j : nat) (s : list nat)
             (r : bst * bool * list tentry) : Prop :=
    let '(bf, st, tr) := r in
    let s' := s ++ kept_idx tr in
    let cut := fun (A : Type) (l : list A) => if st then firstn (j + length (kept_idx tr)) l else l in
    NoDup s' /\ in_rng n s' /\ (length s' <= K)%nat /\ (st = false -> length s' = K) /\
    b_n bf = length s' /\ b_x bf = map cx s' /\
    b_idx bf = cut _ s' /\
    b_y bf = match ycand with
             | Some y => Some (cut _ (map (fun i => nth i y []) s')) | None => None end /\
    (forall below, tst = Some below ->
       Forall (fun e => te_below below e = negb (te_kept e)) tr) /\
    (st = true -> has_tst tst = true /\ exists e, In e tr /\ te_kept e = false).

  (* one more kept step in front of a finished search *)
  Lemma run_post_cons tst K j s te r :
    te_kept te = true -> (forall test, tst = Some test -> te_below test te = negb (te_kept te)) ->
    run_post tst K (S j) (s ++ [te_idx te]) r ->
    run_post tst K j s (let '(bf, st, tr) := r in (bf, st, te :: tr)).
  Proof.
    destruct r as [[bf st] tr]. unfold run_post, kept_idx. cbn [filter]. intros Htk Hte. rewrite Htk. cbn [map length].
    rewrite <- app_assoc, Nat.add_succ_r. cbn [app Nat.add].
    intros (A1 & A2 & A3 & A4 & A5 & A6 & A7 & A8 & A9 & A10).
    do 8 (split; [assumption|]). split.
    - intros test E. constructor; [now apply Hte|now apply A9].
    - intros E. destruct (A10 E) as (H & e & He & Hk). split; [exact H|]. exists e. split; [now right|exact Hk].
  Qed.

  Theorem b_run_of tst K : forall fuel j s f str,
    NoDup s -> in_rng n s -> (length s + fuel = K)%nat -> (j <= length s)%nat ->
    match b_run tst j fuel (b_of K s f str) with
    | Err e => e = EOut
    | Ok r => run_post tst K j s r
    end.
  Proof.
    induction fuel as [|fuel IH]; intros j s f str Hnd Hr Hk Hj; cbn [SelBuf.b_run].
    - unfold run_post, kept_idx, b_of, ypad; cbn. rewrite app_nil_r.
      replace (K - length s)%nat with O by lia. cbn. rewrite !app_nil_r.
      do 3 (split; [auto; lia|]). split; [lia|]. do 3 (split; [reflexivity|]).
      split; [now destruct ycand; rewrite ?app_nil_r|]. split; [constructor|discriminate].
    - destruct str as [|sc rest]; [reflexivity|].
      destruct (Nat.eqb_spec (length sc) n) as [Hl|Hl];
        [|unfold SelBuf.b_best; cbn; now destruct (Nat.eqb_spec (length sc) n)].
      rewrite (b_best_of _ _ _ _ _ _ Hl). destruct (pick tst f s sc) as [[te f']|] eqn:Ep; [|reflexivity].
      apply pick_spec in Ep as (Hi & Hni & Hte & Hstop). rewrite Hl in Hi.
      destruct (te_kept te) eqn:Htk.
      + rewrite b_post_of by (auto; lia).
        assert (Hk2 : (length (s ++ [te_idx te]) + fuel = K)%nat) by (rewrite app_length; cbn; lia).
        assert (Hr2 : in_rng n (s ++ [te_idx te])) by (apply Forall_app; split; [exact Hr|now constructor]).
        specialize (IH (S j) (s ++ [te_idx te]) f' rest (NoDup_snoc _ _ Hnd Hni) Hr2 Hk2
                       ltac:(rewrite app_length; cbn; lia)).
        destruct (b_run tst (S j) fuel _) as [r|e]; [|exact IH].
        apply (run_post_cons tst K j s te r Htk) in IH; [|intros b E; rewrite Htk; now apply Hte].
        now destruct r as [[bf st] tr].
      + rewrite b_truncate_of by lia. unfold run_post, kept_idx. cbn [filter]. rewrite Htk. cbn.
        rewrite app_nil_r, Nat.add_0_r. do 2 (split; [assumption|]). split; [lia|]. split; [discriminate|].
        do 3 (split; [reflexivity|]). split; [unfold ymap; destruct ycand; now rewrite ?firstn_map|].
        split; [intros test E; constructor; [now rewrite (Hte _ E), Htk|constructor]|].
        intros _. split; [now apply Hstop|]. exists te. split; [now left|exact Htk].
  Qed.

  (* [b_run_of] for a buffer state given by the predicate [LInv] *)
  Theorem b_run_spec tst K : forall fuel j b s,
    LInv K b s -> (length s + fuel = K)%nat -> (j <= length s)%nat ->
    match b_run tst j fuel b with
    | Err e => e = EOut
    | Ok r => run_post tst K j s r
    end.
  Proof.
    intros fuel j b s HI. rewrite (LInv_of K b s HI). destruct HI as (A & B & _). now apply b_run_of.
  Qed.

  Lemma b_inits_of K : forall inits s f str,
    in_rng n inits -> (length s + length inits <= K)%nat ->
    b_inits inits (b_of K s f str) = Ok (b_of K (s ++ inits) f str).
  Proof.
    induction inits as [|i r IH]; intros s f str Hr Hle; cbn [SelBuf.b_inits].
    - now rewrite app_nil_r.
    - inversion Hr; subst. cbn in Hle. rewrite b_post_of by (auto; lia).
      rewrite IH by (auto; rewrite app_length; cbn; lia). now rewrite <- app_assoc.
  Qed.

  Lemma b_init_of K str : b_init cand ycand K str = b_of K [] None str.
  Proof. unfold b_init, b_of, ypad; cbn. rewrite Nat.sub_0_r. now destruct ycand. Qed.

  Lemma b_continue_of K str b :
    BOk b -> (b_n b <= K)%nat -> b_continue cand ycand K str b = Ok (b_of K (b_idx b) (b_first b) str).
  Proof.
    intros (_ & _ & Hn & Hx & Hy) Hle. unfold b_continue, b_of.
    destruct (Nat.ltb_spec K (b_n b)) as [H|_]; [lia|].
    unfold assign_prefix. rewrite repeat_length, (Nat.min_l _ _ Hle), <- Hn, Nat.eqb_refl, skipn_repeat, Hx, Hy.
    unfold ymap, ypad. now destruct ycand.
  Qed.

  (* what the buffers report after a fit: all selections, or on a threshold stop the first
     [length (kept_idx tr)] of them (indices and targets; X_selected_ keeps all) *)
  Lemma run_post_reported tst K s0 b st tr :
    run_post tst K O s0 (b, st, tr) ->
    NoDup (b_idx b) /\ in_rng n (b_idx b) /\ b_y b = ymap (b_idx b) /\
    firstn (length (b_idx b)) (b_x b) = map cx (b_idx b) /\
    length (b_idx b) = (b_n b - (if st then length s0 else O))%nat.
  Proof.
    unfold run_post. cbn [Nat.add]. intros (A1 & A2 & _ & _ & A5 & A6 & A7 & A8 & _).
    rewrite A7, A8, A6, A5. unfold ymap. destruct st.
    - split; [now apply firstn_NoDup|]. split; [now apply firstn_Forall|].
      split; [destruct ycand; [now rewrite firstn_map|reflexivity]|].
      rewrite firstn_length, firstn_map, app_length. split; [|lia]. now rewrite Nat.min_l by lia.
    - split; [exact A1|]. split; [exact A2|]. split; [reflexivity|].
      rewrite Nat.sub_0_r. split; [|reflexivity]. rewrite <- (map_length cx). apply firstn_all.
  Qed.

  Lemma run_post_bok tst K s0 b st tr :
    run_post tst K O s0 (b, st, tr) -> st = false \/ s0 = [] -> BOk b.
  Proof.
    intros H Hc. destruct (run_post_reported _ _ _ _ _ _ H) as (B1 & B2 & B3 & B4 & B5).
    destruct H as (_ & _ & _ & _ & A5 & A6 & A7 & _). cbn [Nat.add] in A7.
    assert (E : b_idx b = s0 ++ kept_idx tr).
    { rewrite A7. destruct Hc as [->| ->]; [reflexivity|]. destruct st; [apply firstn_all|reflexivity]. }
    unfold BOk. rewrite E in *. now rewrite A5, A6.
  Qed.

  Definition bprev_ok (prev : option bst) : Prop :=
    match prev with Some b => BOk b | None => True end.
  (* selections present before the loop of this fit *)
  Definition sel_before (prev : option bst) (c : bcfg) (inits : list nat) : list nat :=
    if bc_warm c then match prev with Some b => b_idx b | None => [] end else inits.
  Definition first_before (prev : option bst) (c : bcfg) : option Z :=
    if bc_warm c then match prev with Some b => b_first b | None => None end else None.

  Lemma bfit_rejections prev c inits str :
    (bc_full c = true /\ has_tst (bc_tst c) = true) \/ resolve_n n (bc_nts c) = None \/
    (bc_warm c = true /\ (prev = None \/ exists b0, prev = Some b0 /\ b_n b0 = O)) ->
    bfit prev c inits str = BRejected.
  Proof.
    intros H. unfold SelBuf.bfit. destruct (bc_full c && has_tst (bc_tst c)) eqn:E; [reflexivity|].
    destruct (resolve_n _ _) eqn:Er; [|reflexivity].
    destruct H as [[A B]|[A|[A [->|(b0 & -> & Eb)]]]];
      [now rewrite A, B in E|congruence|now rewrite A|now rewrite A, Eb].
  Qed.

  Section Hyps.
    Variables (prev : option bst) (c : bcfg) (inits : list nat) (str : stream) (k : nat).
    Hypothesis Hp : bc_warm c = true -> bprev_ok prev.
    Hypothesis Hin : bc_warm c = false -> NoDup inits /\ in_rng n inits.
    Hypothesis Hk : resolve_n n (bc_nts c) = Some k.
    Hypothesis Hle : (length (sel_before prev c inits) <= k)%nat.
    Let s0 := sel_before prev c inits.

    (* a fit that is not rejected is the loop started on the buffers of [s0] *)
    Lemma bfit_start :
      NoDup s0 /\ in_rng n s0 /\
      (bfit prev c inits str = BRejected \/
       bfit prev c inits str =
       match b_run (bc_tst c) O (k - length s0) (b_of k s0 (first_before prev c) str) with
       | Err e => BRaised e | Ok (b, st, tr) => BFitted b st tr end).
    Proof.
      unfold SelBuf.bfit, s0, sel_before, first_before in *.
      destruct (bc_full c && has_tst (bc_tst c)); [|rewrite Hk].
      2: destruct (bc_warm c).
      - destruct (bc_warm c); [destruct prev as [b0|]|]; try (destruct (Hp eq_refl) as (A & B & _));
          try (destruct (Hin eq_refl) as (A & B)); repeat split; auto; constructor.
      - destruct prev as [b0|]; [|repeat split; auto; constructor].
        destruct (Hp eq_refl) as (A & B & Cn & _). split; [exact A|]. split; [exact B|].
        destruct (Nat.eqb (b_n b0) O); [now left|right].
        rewrite b_continue_of by (try apply Hp; auto; lia). reflexivity.
      - destruct (Hin eq_refl) as (A & B). split; [exact A|]. split; [exact B|]. right.
        rewrite b_init_of, b_inits_of by (auto; cbn; lia). reflexivity.
    Qed.

    Lemma bfit_run :
      match bfit prev c inits str with
      | BRejected => True
      | BRaised e => e = EOut
      | BFitted b st tr => run_post (bc_tst c) k O s0 (b, st, tr)
      end.
    Proof.
      destruct bfit_start as (A & B & [E|E]); rewrite E; [exact I|].
      pose proof (b_run_of (bc_tst c) k (k - length s0) O s0 (first_before prev c) str A B
                           ltac:(fold s0 in Hle; lia) ltac:(lia)) as R.
      destruct (b_run _ _ _ _) as [[[b st] tr]|e]; exact R.
    Qed.
  End Hyps.
End SelBufP.

(* Witnesses on the faithful model: a warm start after a threshold stop that followed earlier
   selections (finding F2). *)
Definition bout_b (o : bout) : bst :=
  match o with BFitted b _ _ => b | _ => mk_bst O [] [] None None [] end.
Definition bout_tr (o : bout) : list tentry := match o with BFitted _ _ tr => tr | _ => [] end.

(* cold fit with one initial selection, one kept step, threshold stop; then a warm start:
   the length-1 index buffer is BROADCAST into the two-slot prefix -> duplicate index *)
Definition f2_cand : list (list Z) := [[0;0];[3;0];[0;4];[1;1]].
Definition f2_stage1 :=
  bfit f2_cand None None (mk_bcfg (NtsInt 4) (tst_of_thr (AbsThr 10 1)) false false)
       [O] [[0;9;16;2];[0;9;0;2]].
Definition f2_b1 : bst := Eval vm_compute in bout_b f2_stage1.
Definition f2_tr1 : list tentry := Eval vm_compute in bout_tr f2_stage1.
Definition f2_stage2 :=
  bfit f2_cand None (Some f2_b1) (mk_bcfg (NtsInt 4) None false true) [] [[0;9;0;2];[0;0;0;2]].
Definition f2_b2 : bst := Eval vm_compute in bout_b f2_stage2.
Definition f2_tr2 : list tentry := Eval vm_compute in bout_tr f2_stage2.

(* two kept steps before the stop: the prefix assignment cannot broadcast -> ValueError *)
Definition f2v_stage1 :=
  bfit f2_cand None None (mk_bcfg (NtsInt 4) (tst_of_thr (AbsThr 5 1)) false false)
       [O] [[0;9;16;2];[0;9;0;2];[0;0;0;2]].
Definition f2v_b1 : bst := Eval vm_compute in bout_b f2v_stage1.
Definition f2v_tr1 : list tentry := Eval vm_compute in bout_tr f2v_stage1.

(* with targets the truncated y buffer is padded too short -> IndexError in the warm loop *)
Definition f2_y : option (list (list Z)) := Some [[1];[2];[3];[4]].
Definition f2i_stage1 :=
  bfit f2_cand f2_y None (mk_bcfg (NtsInt 4) (tst_of_thr (AbsThr 10 1)) false false)
       [O] [[0;9;16;2];[0;9;0;2]].
Definition f2i_b1 : bst := Eval vm_compute in bout_b f2i_stage1.
Definition f2i_tr1 : list tentry := Eval vm_compute in bout_tr f2i_stage1.
