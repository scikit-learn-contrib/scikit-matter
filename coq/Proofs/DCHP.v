(* The model of DirectionalConvexHull over Q (Model/DCH.v, part 1) under the oracle contract
   h1-h3, with general position and simplicial kept facets (Model/DCHExt.v, part 3) for the strict
   clause.  Stdlib style. *)
From Coq Require Import QArith Lqa Sorting.Sorted.
From Verif Require Import ListX ListXP DCH DCHExt.

Local Open Scope Q_scope.

Lemma Qle_bool_false a b : Qle_bool a b = false <-> b < a.
Proof.
  split.
  - intros H. apply Qnot_le_lt. intros Hle. apply Qle_bool_iff in Hle. congruence.
  - intros H. destruct (Qle_bool a b) eqn:E; [|reflexivity].
    apply Qle_bool_iff in E. apply Qlt_not_le in H. contradiction.
Qed.

Lemma Qltb_lt a b : Qltb a b = true <-> a < b.
Proof. unfold Qltb. rewrite negb_true_iff. apply Qle_bool_false. Qed.

Lemma Qltb_ge a b : Qltb a b = false <-> b <= a.
Proof.
  unfold Qltb. rewrite negb_false_iff. apply Qle_bool_iff.
Qed.

Lemma qmin_list_none l : qmin_list l = None -> l = [].
Proof. destruct l as [|a t]; [reflexivity|]. cbn. destruct (qmin_list t); discriminate. Qed.

Lemma qmax_list_none l : qmax_list l = None -> l = [].
Proof. destruct l as [|a t]; [reflexivity|]. cbn. destruct (qmax_list t); discriminate. Qed.

Lemma qmin_list_spec l m :
  qmin_list l = Some m -> In m l /\ forall a, In a l -> m <= a.
Proof.
  revert m; induction l as [|x t IH]; intros m H; cbn in H; [discriminate|].
  destruct (qmin_list t) as [m'|] eqn:E.
  - specialize (IH m' eq_refl) as [Hin Hle]. injection H as <-. unfold qmin.
    destruct (Qle_bool x m') eqn:C.
    + apply Qle_bool_iff in C. split; [now left|]. intros a [<-|Ha]; [lra|].
      specialize (Hle a Ha). lra.
    + apply Qle_bool_false in C. split; [now right|]. intros a [<-|Ha]; [lra|]. auto.
  - injection H as <-. apply qmin_list_none in E. subst t. split; [now left|].
    intros a [<-|[]]. lra.
Qed.

Lemma qmax_list_spec l m :
  qmax_list l = Some m -> In m l /\ forall a, In a l -> a <= m.
Proof.
  revert m; induction l as [|x t IH]; intros m H; cbn in H; [discriminate|].
  destruct (qmax_list t) as [m'|] eqn:E.
  - specialize (IH m' eq_refl) as [Hin Hle]. injection H as <-. unfold qmax.
    destruct (Qle_bool x m') eqn:C.
    + apply Qle_bool_iff in C. split; [now right|]. intros a [<-|Ha]; [lra|]. auto.
    + apply Qle_bool_false in C. split; [now left|]. intros a [<-|Ha]; [lra|].
      specialize (Hle a Ha). lra.
  - injection H as <-. apply qmax_list_none in E. subst t. split; [now left|].
    intros a [<-|[]]. lra.
Qed.

Lemma qmin_list_some l : l <> [] -> exists m, qmin_list l = Some m.
Proof.
  destruct l as [|a t]; [congruence|]. intros _. cbn. destruct (qmin_list t); eauto.
Qed.

Lemma qmax_list_some l : l <> [] -> exists m, qmax_list l = Some m.
Proof.
  destruct l as [|a t]; [congruence|]. intros _. cbn. destruct (qmax_list t); eauto.
Qed.

Lemma insu_In x l i : In i (insu x l) <-> i = x \/ In i l.
Proof.
  induction l as [|y t IH]; cbn [insu In]; [firstorder congruence|].
  destruct (Nat.ltb x y) eqn:L; [cbn [In]; firstorder congruence|].
  destruct (Nat.eqb x y) eqn:E.
  - apply Nat.eqb_eq in E. subst. cbn [In]. firstorder congruence.
  - cbn [In]. rewrite IH. firstorder congruence.
Qed.

Lemma unique_sorted_In l i : In i (unique_sorted l) <-> In i l.
Proof.
  induction l as [|x t IH]; cbn; [tauto|]. rewrite insu_In, IH. firstorder congruence.
Qed.

Lemma insu_sorted x l : StronglySorted lt l -> StronglySorted lt (insu x l).
Proof.
  induction l as [|y t IH]; cbn [insu]; intros H; [repeat constructor|].
  inversion H as [|? ? Ht Hall]; subst.
  destruct (Nat.ltb x y) eqn:L.
  - apply Nat.ltb_lt in L. constructor; [assumption|]. constructor; [assumption|].
    eapply Forall_impl; [|exact Hall]. intros a Ha. cbn in Ha. lia.
  - apply Nat.ltb_ge in L. destruct (Nat.eqb x y) eqn:E; [assumption|].
    apply Nat.eqb_neq in E. constructor; [auto|].
    apply Forall_forall. intros a Ha. apply insu_In in Ha as [->|Ha]; [lia|].
    rewrite Forall_forall in Hall. auto.
Qed.

Lemma unique_sorted_sorted l : StronglySorted lt (unique_sorted l).
Proof. induction l as [|x t IH]; cbn; [constructor|]. now apply insu_sorted. Qed.

Lemma selected_spec fs :
  StronglySorted lt (selected fs) /\
  forall i, In i (selected fs) <-> exists f, In f (lower_facets fs) /\ In i (fverts f).
Proof.
  split; [apply unique_sorted_sorted|]. intros i. unfold selected.
  rewrite unique_sorted_In, in_flat_map. tauto.
Qed.

Lemma lower_facets_In fs f : In f (lower_facets fs) <-> In f fs /\ f_ny f < 0.
Proof.
  unfold lower_facets. rewrite filter_In. unfold is_lower. now rewrite Qltb_lt.
Qed.

Lemma qdot_cons a u b v : qdot (a :: u) (b :: v) = a * b + qdot u v.
Proof. reflexivity. Qed.

Lemma ddist_gval f p : ddist f p == gval f p / f_ny f.
Proof. unfold ddist, gval. unfold Qdiv. ring. Qed.

Lemma ny_nonempty f : ~ f_ny f == 0 -> exists nx, fnormal f = f_ny f :: nx.
Proof.
  unfold f_ny. destruct (fnormal f) as [|a nx]; cbn; intros H; [exfalso; apply H; reflexivity|].
  now exists nx.
Qed.

Lemma ddist_plane f y x : ~ f_ny f == 0 -> ddist f (y :: x) == y - plane f x.
Proof.
  intros Hny. destruct (ny_nonempty f Hny) as [nx Hn].
  unfold ddist, plane. rewrite Hn at 1 2. cbn [tl]. rewrite qdot_cons.
  field. exact Hny.
Qed.

Lemma div_neg_sign g ny : ny < 0 ->
  (0 <= g / ny <-> g <= 0) /\ (0 < g / ny <-> g < 0) /\ (g / ny == 0 <-> g == 0).
Proof.
  intros Hny. assert (E : (g / ny) * ny == g) by (field; lra).
  set (d := g / ny) in *. clearbody d. repeat split; intros H; nra.
Qed.

Lemma hull_distance_above tol lf p :
  (forall f, In f lf -> - tol <= ddist f p) -> lf <> [] ->
  exists dd, hull_distance tol lf p = Some dd /\
    (exists f, In f lf /\ dd = ddist f p) /\ forall f, In f lf -> dd <= ddist f p.
Proof.
  intros H Hne. unfold hull_distance, hull_distance_with.
  replace (existsb _ _) with false.
  - destruct (qmin_list_some (map (fun f => ddist f p) lf)) as [m Hm].
    { destruct lf; [congruence|discriminate]. }
    exists m. split; [exact Hm|]. apply qmin_list_spec in Hm as [Hin Hle]. split.
    + apply in_map_iff in Hin as (f & <- & Hf). eauto.
    + intros f Hf. apply Hle. now apply (in_map (fun f => ddist f p)).
  - symmetry. destruct (existsb _ _) eqn:E; [|reflexivity]. exfalso.
    apply existsb_exists in E as (d & Hd & Hlt). apply in_map_iff in Hd as (f & <- & Hf).
    apply Qltb_lt in Hlt. specialize (H f Hf). lra.
Qed.

Section Contract.
  Variable fs : list facet.
  Variable P : list (list Q).
  Variable tol : Q.
  Hypothesis Htol : 0 <= tol.
  Let lf := lower_facets fs.

  Lemma sample_facet_dist f p :
    contract_h1 fs P -> In f lf -> In p P -> 0 <= ddist f p /\ (ddist f p == 0 <-> gval f p == 0).
  Proof.
    intros H1 Hf Hp. apply lower_facets_In in Hf as [Hfs Hny].
    rewrite ddist_gval. destruct (div_neg_sign (gval f p) _ Hny) as (A & _ & B).
    split; [apply A, H1; assumption|exact B].
  Qed.

  Lemma sample_distance p :
    contract_h1 fs P -> lf <> [] -> In p P ->
    exists dd, hull_distance tol lf p = Some dd /\ 0 <= dd /\
      (exists f, In f lf /\ dd = ddist f p) /\ forall f, In f lf -> dd <= ddist f p.
  Proof.
    intros H1 Hne Hp. destruct (hull_distance_above tol lf p) as (dd & Hd & (f & Hf & E) & Hle); [|assumption|].
    - intros f Hf. pose proof (proj1 (sample_facet_dist f p H1 Hf Hp)). lra.
    - exists dd. split; [exact Hd|]. split; [|eauto]. rewrite E. now apply sample_facet_dist.
  Qed.

  Lemma selected_zero i :
    contract_h1 fs P -> contract_h2 fs P -> In i (selected fs) ->
    exists dd, hull_distance tol lf (nth i P []) = Some dd /\ dd == 0.
  Proof.
    intros H1 H2 Hi. apply selected_spec in Hi as (f & Hf & Hv).
    destruct (H2 f i Hf Hv) as [Hlt Hg]. pose proof (nth_In P [] Hlt) as Hp.
    destruct (sample_distance _ H1 ltac:(intros E; fold lf in Hf; now rewrite E in Hf) Hp) as (dd & Hd & Hge & _ & Hle).
    exists dd. split; [exact Hd|]. specialize (Hle f Hf).
    apply (sample_facet_dist f _ H1 Hf Hp) in Hg. lra.
  Qed.

  Lemma unselected_positive i :
    contract_h1 fs P -> contract_gp fs P -> lf <> [] ->
    (i < length P)%nat -> ~ In i (selected fs) ->
    exists dd, hull_distance tol lf (nth i P []) = Some dd /\ 0 < dd.
  Proof.
    intros H1 Hgp Hne Hi Hns. pose proof (nth_In P [] Hi) as Hp.
    destruct (sample_distance _ H1 Hne Hp) as (dd & Hd & Hge & (f & Hf & E) & _).
    exists dd. split; [exact Hd|].
    destruct (Qlt_le_dec 0 dd) as [|Hz]; [assumption|exfalso].
    apply Hns, selected_spec. exists f. split; [exact Hf|].
    apply Hgp; [exact Hf|exact Hi|]. apply (sample_facet_dist f _ H1 Hf Hp). rewrite <- E. lra.
  Qed.
End Contract.

Section Query.
  Variable lf : list facet.
  Variable tol : Q.
  Hypothesis Hlow : forall f, In f lf -> f_ny f < 0.

  Lemma ddist_plane_lf f y x : In f lf -> ddist f (y :: x) == y - plane f x.
  Proof. intros Hf. apply ddist_plane. pose proof (Hlow f Hf). lra. Qed.

  Lemma surface_spec x s :
    surface lf x = Some s ->
    (exists f, In f lf /\ s = plane f x) /\ forall f, In f lf -> plane f x <= s.
  Proof.
    intros H. apply qmax_list_spec in H as [Hin Hle]. split.
    - apply in_map_iff in Hin as (f & E & Hf). eauto.
    - intros f Hf. apply Hle. now apply in_map with (f := fun f => plane f x).
  Qed.

  Lemma offset_above x y s :
    surface lf x = Some s -> s - tol <= y ->
    exists dd, hull_distance tol lf (y :: x) = Some dd /\ dd == y - s.
  Proof.
    intros Hs Hy. destruct (surface_spec x s Hs) as [(f1 & Hf1 & E1) Hmax].
    destruct (hull_distance_above tol lf (y :: x)) as (dd & Hd & (f0 & Hf0 & E0) & Hle).
    - intros f Hf. rewrite (ddist_plane_lf f y x Hf). specialize (Hmax f Hf). lra.
    - intros E. rewrite E in Hf1. exact Hf1.
    - exists dd. split; [exact Hd|]. specialize (Hle f1 Hf1).
      rewrite (ddist_plane_lf f1 y x Hf1) in Hle. pose proof (ddist_plane_lf f0 y x Hf0).
      specialize (Hmax f0 Hf0). subst s dd. lra.
  Qed.

  Lemma distance_sign x y s dd :
    0 <= tol -> surface lf x = Some s -> hull_distance tol lf (y :: x) = Some dd ->
    (0 < dd <-> s < y) /\ (dd < 0 <-> y < s) /\ (dd == 0 <-> y == s) /\
    (y < s - tol -> dd < - tol).
  Proof.
    intros Htol Hs Hd. destruct (surface_spec x s Hs) as [(f1 & Hf1 & E1) Hmax].
    destruct (Qlt_le_dec y (s - tol)) as [Hbelow|Hab].
    - (* below: the maximum over the facets violated beyond the tolerance *)
      unfold hull_distance, hull_distance_with in Hd.
      assert (Hb : existsb (fun d => Qltb d (- tol)) (map (fun f => ddist f (y :: x)) lf) = true).
      { apply existsb_exists. exists (ddist f1 (y :: x)). split; [exact (in_map (fun f => ddist f (y :: x)) lf f1 Hf1)|].
        apply Qltb_lt. rewrite (ddist_plane_lf f1 y x Hf1). subst s. lra. }
      rewrite Hb in Hd. apply qmax_list_spec in Hd as [Hin _].
      apply filter_In in Hin as [Hin Hk]. unfold keep_fixed in Hk. apply Qltb_lt in Hk.
      apply in_map_iff in Hin as (f & E & Hf). rewrite <- E in Hk.
      rewrite (ddist_plane_lf f y x Hf) in Hk. specialize (Hmax f Hf).
      rewrite <- E. rewrite (ddist_plane_lf f y x Hf).
      repeat split; intros; lra.
    - destruct (offset_above x y s Hs Hab) as (dd' & Hd' & E).
      rewrite Hd in Hd'. injection Hd' as <-. repeat split; intros; lra.
  Qed.
End Query.

Lemma qsum_map2_add {A} (F G : A -> Q) ws (Ps : list A) :
  qsum (map2 (fun w p => w * (F p + G p)) ws Ps)
  == qsum (map2 (fun w p => w * F p) ws Ps) + qsum (map2 (fun w p => w * G p) ws Ps).
Proof.
  revert Ps; induction ws as [|w ws IH]; intros [|p Ps]; cbn; try ring.
  rewrite IH. ring.
Qed.

Lemma qsum_map2_scale {A} (F : A -> Q) k ws (Ps : list A) :
  qsum (map2 (fun w p => w * (F p * k)) ws Ps) == k * qsum (map2 (fun w p => w * F p) ws Ps).
Proof.
  revert Ps; induction ws as [|w ws IH]; intros [|p Ps]; cbn; try ring.
  rewrite IH. ring.
Qed.

Lemma qsum_map2_ext {A} (F G : Q -> A -> Q) ws (Ps : list A) :
  (forall w p, In p Ps -> F w p == G w p) ->
  qsum (map2 F ws Ps) == qsum (map2 G ws Ps).
Proof.
  revert Ps; induction ws as [|w ws IH]; intros [|p Ps] H; cbn; try reflexivity.
  rewrite H by now left. rewrite IH; [reflexivity|]. intros; apply H; now right.
Qed.

Lemma qsum_map2_const {A} k ws (Ps : list A) :
  length ws = length Ps -> qsum (map2 (fun w _ => w * k) ws Ps) == k * qsum ws.
Proof.
  revert Ps; induction ws as [|w ws IH]; intros [|p Ps] H; cbn in *; try discriminate; try ring.
  rewrite IH by congruence. ring.
Qed.

Lemma qdot_qcol ws (Ps : list (list Q)) c :
  qdot ws (qcol Ps c) = qsum (map2 (fun w p => w * nth c p 0) ws Ps).
Proof. unfold qdot, qcol. now rewrite map2_map_r. Qed.

(* sum_k w_k (p_k . n) = v . n  when v is the combination of the p_k, coordinate by coordinate *)
Lemma qdot_combo n : forall (Ps : list (list Q)) ws v,
  (forall p, In p Ps -> length p = length n) -> length v = length n ->
  (forall c, (c < length n)%nat -> qdot ws (qcol Ps c) == nth c v 0) ->
  qsum (map2 (fun w p => w * qdot p n) ws Ps) == qdot v n.
Proof.
  induction n as [|n0 n' IH]; intros Ps ws v Hlen Hv Hc.
  - destruct v; [|discriminate]. cbn.
    rewrite (qsum_map2_ext _ (fun w _ => w * 0)).
    + clear. revert Ps; induction ws as [|w ws IH]; intros [|p Ps]; cbn; try reflexivity.
      rewrite IH. ring.
    + intros w p Hp. specialize (Hlen p Hp). destruct p; [|discriminate]. reflexivity.
  - destruct v as [|v0 v']; [discriminate|]. rewrite qdot_cons.
    rewrite (qsum_map2_ext _ (fun w p => w * (nth 0 p 0 * n0 + qdot (tl p) n'))).
    2:{ intros w p Hp. specialize (Hlen p Hp). destruct p as [|p0 p']; [discriminate|].
        cbn [nth tl]. rewrite qdot_cons. reflexivity. }
    rewrite (qsum_map2_add (fun p => nth 0 p 0 * n0) (fun p => qdot (tl p) n')).
    rewrite qsum_map2_scale. rewrite <- qdot_qcol. rewrite (Hc 0%nat) by (cbn; lia).
    cbn [nth].
    assert (E : qsum (map2 (fun w p => w * qdot (tl p) n') ws Ps)
                == qsum (map2 (fun w p => w * qdot p n') ws (map (@tl Q) Ps))).
    { now rewrite map2_map_r. }
    rewrite E. rewrite (IH (map (@tl Q) Ps) ws v').
    + ring.
    + intros p Hp. apply in_map_iff in Hp as (p1 & <- & Hp1). specialize (Hlen p1 Hp1).
      destruct p1; [discriminate|]. cbn in *. congruence.
    + cbn in Hv. congruence.
    + intros c Hlt. specialize (Hc (S c)). cbn [nth length] in Hc.
      rewrite <- Hc by lia. unfold qcol. rewrite map_map. unfold qdot.
      rewrite !map2_map_r. apply qsum_map2_ext. intros w p _.
      destruct p as [|p0 p']; [destruct c; reflexivity|reflexivity].
Qed.

Lemma gval_combo f (Ps : list (list Q)) ws t x :
  (forall p, In p Ps -> length p = length (fnormal f)) ->
  length (t :: x) = length (fnormal f) -> length ws = length Ps -> qsum ws == 1 ->
  qdot ws (qcol Ps 0) == t ->
  (forall c, (c < length x)%nat -> qdot ws (qcol Ps (S c)) == nth c x 0) ->
  qsum (map2 (fun w p => w * gval f p) ws Ps) == gval f (t :: x).
Proof.
  intros Hlen Hv Hws Hs Ht Hx. unfold gval.
  rewrite (qsum_map2_add (fun p => qdot p (fnormal f)) (fun _ => foffset f)).
  rewrite qsum_map2_const by assumption. rewrite Hs.
  rewrite (qdot_combo (fnormal f) Ps ws (t :: x)); [ring|assumption|assumption|].
  intros [|c] Hc; cbn [nth]; [exact Ht|]. apply Hx. cbn in Hv. lia.
Qed.

Lemma qsum_nonneg_le ws (gs : list Q) :
  (forall w, In w ws -> 0 <= w) -> (forall g, In g gs -> g <= 0) ->
  qsum (map2 Qmult ws gs) <= 0.
Proof.
  revert gs; induction ws as [|w ws IH]; intros [|g gs] Hw Hg; cbn; try lra.
  assert (0 <= w) by (apply Hw; now left). assert (g <= 0) by (apply Hg; now left).
  assert (qsum (map2 Qmult ws gs) <= 0).
  { apply IH; intros; [apply Hw|apply Hg]; now right. }
  nra.
Qed.

Lemma gval_plane f y x : f_ny f < 0 -> gval f (y :: x) == f_ny f * (y - plane f x).
Proof.
  intros H. pose proof (ddist_plane f y x ltac:(lra)) as D. rewrite ddist_gval in D.
  rewrite <- D. field. lra.
Qed.

Lemma qsum_zero_terms : forall (ws gs : list Q),
  (forall w, In w ws -> 0 <= w) -> (forall g, In g gs -> g <= 0) ->
  qsum (map2 Qmult ws gs) == 0 -> forall j, nth j ws 0 * nth j gs 0 == 0.
Proof.
  induction ws as [|w ws IH]; intros [|g gs] Hw Hg Hs j; try (destruct j; cbn; ring).
  cbn in Hs.
  assert (W : 0 <= w) by (apply Hw; now left). assert (G : g <= 0) by (apply Hg; now left).
  assert (R : qsum (map2 Qmult ws gs) <= 0).
  { apply qsum_nonneg_le; intros; [apply Hw|apply Hg]; now right. }
  assert (WG : w * g <= 0) by nra.
  destruct j as [|j]; cbn [nth]; [lra|].
  apply IH; [intros; apply Hw; now right|intros; apply Hg; now right|lra].
Qed.

Section Surface.
  Variable d : nat.
  Variable fs : list facet.
  Variable P : list (list Q).
  Hypothesis Hwf : wf_dim d fs P.
  Hypothesis H1 : contract_h1 fs P.
  Hypothesis H2 : contract_h2 fs P.

  Lemma sample_shape i : (i < length P)%nat ->
    nth i P [] = nth 0 (nth i P []) 0 :: tl (nth i P []) /\ length (tl (nth i P [])) = d.
  Proof.
    intros Hi. destruct Hwf as [_ Wp]. specialize (Wp _ (nth_In P [] Hi)).
    destruct (nth i P []); [discriminate|]. cbn in *. split; [reflexivity|congruence].
  Qed.

  Lemma gval_sub_combo f Ps ws x :
    In f fs -> (forall p, In p Ps -> In p P) -> length x = d ->
    length ws = length Ps -> qsum ws == 1 ->
    (forall c, (c < d)%nat -> qdot ws (qcol Ps (S c)) == nth c x 0) ->
    qsum (map2 Qmult ws (map (gval f) Ps)) == gval f (qdot ws (qcol Ps 0) :: x).
  Proof.
    intros Hfs HPs Hx Hl Hsum Hc. destruct Hwf as [Wf Wp]. rewrite map2_map_r.
    apply gval_combo; try assumption; try reflexivity.
    - intros p Hp. rewrite (Wf f Hfs). now apply Wp, HPs.
    - cbn. rewrite (Wf f Hfs). congruence.
    - intros c Hlt. apply Hc. lia.
  Qed.

  (* a convex combination of samples lies on or above the plane of every lower facet, and on it
     when all the samples used do *)
  Lemma sub_combo f Ps ws x :
    In f (lower_facets fs) -> (forall p, In p Ps -> In p P) -> length x = d ->
    length ws = length Ps -> (forall w, In w ws -> 0 <= w) -> qsum ws == 1 ->
    (forall c, (c < d)%nat -> qdot ws (qcol Ps (S c)) == nth c x 0) ->
    plane f x <= qdot ws (qcol Ps 0) /\
    ((forall p, In p Ps -> gval f p == 0) -> plane f x == qdot ws (qcol Ps 0)).
  Proof.
    intros Hf HPs Hx Hl Hpos Hsum Hc. apply lower_facets_In in Hf as [Hfs Hny].
    pose proof (gval_sub_combo f Ps ws x Hfs HPs Hx Hl Hsum Hc) as E.
    rewrite gval_plane in E by assumption. split.
    - assert (L : qsum (map2 Qmult ws (map (gval f) Ps)) <= 0); [|nra].
      apply qsum_nonneg_le; [assumption|].
      intros g Hg. apply in_map_iff in Hg as (p & <- & Hp). apply H1; auto.
    - intros Hz. rewrite map2_map_r, (qsum_map2_ext _ (fun w _ => w * 0)) in E.
      + rewrite qsum_map2_const in E by assumption. nra.
      + intros w p Hp. now rewrite (Hz p Hp).
  Qed.

  Lemma combo_above_plane f w x :
    In f (lower_facets fs) -> length x = d -> is_combo d P w x -> plane f x <= combo_target P w.
  Proof. intros Hf Hx (Hlw & Hpos & Hsum & Hc). now apply (sub_combo f P w x). Qed.

  Let verts f := map (fun v => nth v P []) (fverts f).

  (* over a position covered by a lower facet f, that facet's plane is attained by a convex
     combination of its vertices, which lies on or above the plane of any lower facet g *)
  Lemma facet_combo g f lam x :
    In g (lower_facets fs) -> In f (lower_facets fs) -> length x = d -> covers d P f lam x ->
    plane g x <= qdot lam (map (fun v => nth 0 (nth v P []) 0) (fverts f)) /\
    plane f x == qdot lam (map (fun v => nth 0 (nth v P []) 0) (fverts f)).
  Proof.
    intros Hg Hf Hx (Hll & Hpos & Hsum & Hc).
    assert (Ecol : forall c, qcol (verts f) c = map (fun v => nth c (nth v P []) 0) (fverts f))
      by (intros c; unfold qcol, verts; now rewrite map_map).
    assert (Hv : forall p, In p (verts f) -> In p P /\ gval f p == 0).
    { intros p Hp. apply in_map_iff in Hp as (v & <- & Hv). destruct (H2 f v Hf Hv).
      split; [now apply nth_In|assumption]. }
    rewrite <- Ecol.
    assert (C : forall c, (c < d)%nat -> qdot lam (qcol (verts f) (S c)) == nth c x 0)
      by (intros c Hlt; rewrite Ecol; now apply Hc).
    assert (L : length lam = length (verts f)) by (unfold verts; now rewrite map_length).
    split.
    - apply (sub_combo g (verts f) lam x); try assumption. intros p Hp. now apply Hv.
    - apply (sub_combo f (verts f) lam x); try assumption; intros p Hp; now apply Hv.
  Qed.

  Lemma surface_is_hull x s :
    length x = d -> in_footprint d fs P x -> surface (lower_facets fs) x = Some s ->
    (exists f lam, In f (lower_facets fs) /\ covers d P f lam x /\
        s == qdot lam (map (fun v => nth 0 (nth v P []) 0) (fverts f))) /\
    (forall w, is_combo d P w x -> s <= combo_target P w).
  Proof.
    intros Hx (f & lam & Hf & Hcov) Hs.
    destruct (surface_spec _ x s Hs) as [(f1 & Hf1 & ->) Hmax]. split.
    - exists f, lam. split; [exact Hf|]. split; [exact Hcov|].
      destruct (facet_combo f1 f lam x Hf1 Hf Hx Hcov) as [Lo Eq]. specialize (Hmax f Hf). lra.
    - intros w Hw. now apply combo_above_plane.
  Qed.

  Lemma unselected_not_lower i :
    contract_h3 d fs P -> (i < length P)%nat -> ~ In i (selected fs) ->
    exists f lam, In f (lower_facets fs) /\ covers d P f lam (tl (nth i P [])) /\
      ~ In i (fverts f) /\
      qdot lam (map (fun v => nth 0 (nth v P []) 0) (fverts f)) <= nth 0 (nth i P []) 0.
  Proof.
    intros H3 Hi Hns. destruct (H3 _ (nth_In P [] Hi)) as (f & lam & Hf & Hcov).
    exists f, lam. split; [exact Hf|]. split; [exact Hcov|]. split.
    - intros Hv. apply Hns. apply selected_spec. eauto.
    - destruct (sample_shape i Hi) as [Ep Hx].
      destruct (facet_combo f f lam _ Hf Hf Hx Hcov) as [_ <-].
      apply lower_facets_In in Hf as [Hfs Hny].
      pose proof (H1 f _ Hfs (nth_In P [] Hi)) as G. rewrite Ep, gval_plane in G by assumption. nra.
  Qed.

  (* the <= half of "selected => lower vertex", over combinations of all samples *)
  Lemma selected_lower i w :
    In i (selected fs) -> is_combo d P w (tl (nth i P [])) ->
    nth 0 (nth i P []) 0 <= combo_target P w.
  Proof.
    intros Hi Hw. apply selected_spec in Hi as (f & Hf & Hv).
    destruct (H2 f i Hf Hv) as [Hlt Hg]. destruct (sample_shape i Hlt) as [Ep Hx].
    pose proof (combo_above_plane f w _ Hf Hx Hw) as Hab.
    apply lower_facets_In in Hf as [Hfs Hny]. rewrite Ep, gval_plane in Hg by assumption. nra.
  Qed.

  Hypothesis Hgp : contract_gp fs P.
  Hypothesis Hsx : contract_simplex d fs P.

  (* STRICTLY below every combination of the other samples, in general position w.r.t. the
     hull and with simplicial kept facets: equality would put all the weight on samples on
     the facet's plane, i.e. (general position) on its vertices, which a simplex excludes *)
  Lemma selected_lower_strict i w :
    In i (selected fs) -> is_combo d P w (tl (nth i P [])) -> nth i w 0 == 0 ->
    nth 0 (nth i P []) 0 < combo_target P w.
  Proof.
    intros Hi Hw Hwi. pose proof (selected_lower i w Hi Hw) as Hle.
    destruct (Qlt_le_dec (nth 0 (nth i P []) 0) (combo_target P w)) as [Hlt|Hge]; [exact Hlt|exfalso].
    assert (HT : combo_target P w == nth 0 (nth i P []) 0) by lra.
    apply selected_spec in Hi as (f & Hf & Hv).
    apply (Hsx f i w Hf Hv Hw); [|exact Hwi].
    destruct (H2 f i Hf Hv) as [Hlt Hg]. destruct (sample_shape i Hlt) as [Ep Hx].
    pose proof Hf as Hf'. apply lower_facets_In in Hf' as [Hfs Hny].
    destruct Hw as (Hlw & Hpos & Hsum & Hc).
    pose proof (gval_sub_combo f P w _ Hfs (fun p H => H) Hx Hlw Hsum Hc) as E.
    fold (combo_target P w) in E. rewrite gval_plane in E by assumption.
    rewrite Ep, gval_plane in Hg by assumption.
    assert (E0 : qsum (map2 Qmult w (map (gval f) P)) == 0) by nra.
    assert (Hgs : forall g, In g (map (gval f) P) -> g <= 0).
    { intros g Hg'. apply in_map_iff in Hg' as (p & <- & Hp'). now apply H1. }
    pose proof (qsum_zero_terms w (map (gval f) P) Hpos Hgs E0) as Hz.
    intros j Hj Hnv. specialize (Hz j).
    rewrite (nth_map_lt (gval f) P j 0 []) in Hz by assumption.
    destruct (Qeq_dec (nth j w 0) 0) as [E1|N0]; [exact E1|exfalso].
    apply Qmult_integral in Hz as [Hz|Hz]; [contradiction|].
    apply Hnv. now apply (Hgp f j Hf Hj).
  Qed.
End Surface.

Lemma Forall2_existsb {A} (R : A -> A -> Prop) (p p' : A -> bool) l l' :
  Forall2 R l l' -> (forall x x', R x x' -> p x = p' x') -> existsb p l = existsb p' l'.
Proof. intros H E. induction H as [|x x' l l' Hx _ IH]; cbn; [reflexivity|]. now rewrite (E _ _ Hx), IH. Qed.

Lemma Forall2_filter {A} (R : A -> A -> Prop) (p p' : A -> bool) l l' :
  Forall2 R l l' -> (forall x x', R x x' -> p x = p' x') ->
  Forall2 R (filter p l) (filter p' l').
Proof.
  intros H E. induction H as [|x x' l l' Hx _ IH]; cbn; [constructor|].
  rewrite <- (E _ _ Hx). destruct (p x); [constructor|]; assumption.
Qed.

Section Scale.
  Variable a : Q.
  Hypothesis Ha : 0 < a.
  Let srel (x x' : Q) : Prop := x' == a * x.

  Lemma qle_bool_scale x y x' y' : srel x x' -> srel y y' -> Qle_bool x' y' = Qle_bool x y.
  Proof.
    unfold srel. intros Hx Hy. apply Bool.eq_true_iff_eq. rewrite !Qle_bool_iff.
    split; intros H; nra.
  Qed.

  Lemma qmin_list_scale l l' : Forall2 srel l l' -> orel a (qmin_list l) (qmin_list l').
  Proof.
    intros H. induction H as [|x x' l l' Hx _ IH]; cbn; [exact I|].
    destruct (qmin_list l) as [m|], (qmin_list l') as [m'|]; cbn in IH; try contradiction.
    - cbn. unfold qmin. rewrite (qle_bool_scale x m x' m' Hx IH).
      destruct (Qle_bool x m); assumption.
    - exact Hx.
  Qed.

  Lemma qmax_list_scale l l' : Forall2 srel l l' -> orel a (qmax_list l) (qmax_list l').
  Proof.
    intros H. induction H as [|x x' l l' Hx _ IH]; cbn; [exact I|].
    destruct (qmax_list l) as [m|], (qmax_list l') as [m'|]; cbn in IH; try contradiction.
    - cbn. unfold qmax. rewrite (qle_bool_scale x m x' m' Hx IH).
      destruct (Qle_bool x m); assumption.
    - exact Hx.
  Qed.

  Lemma hull_logic_scale tol tol' all all' :
    tol' == a * tol -> Forall2 srel all all' ->
    orel a (if existsb (fun d => Qltb d (- tol)) all
            then qmax_list (filter (keep_fixed tol) all) else qmin_list all)
           (if existsb (fun d => Qltb d (- tol')) all'
            then qmax_list (filter (keep_fixed tol') all') else qmin_list all').
  Proof.
    intros Ht H.
    assert (E : forall x x', srel x x' -> Qltb x (- tol) = Qltb x' (- tol')).
    { intros x x' Hx. symmetry. unfold Qltb. f_equal. apply qle_bool_scale; [|exact Hx]. unfold srel. rewrite Ht. ring. }
    rewrite (Forall2_existsb srel _ (fun d => Qltb d (- tol')) all all' H E).
    destruct (existsb _ all').
    - apply qmax_list_scale. apply Forall2_filter; [exact H|exact E].
    - now apply qmin_list_scale.
  Qed.

  Variable c : Q.

  Lemma is_lower_taffine f : is_lower (taffine a c f) = is_lower f.
  Proof.
    unfold is_lower, taffine, f_ny. cbn [fnormal hd].
    apply Bool.eq_true_iff_eq. rewrite !Qltb_lt.
    set (ny := hd 0 (fnormal f)).
    assert (E : (ny / a) * a == ny) by (field; lra).
    set (q := ny / a) in *. clearbody q. split; intros H; nra.
  Qed.

  Lemma lower_facets_taffine fs :
    lower_facets (map (taffine a c) fs) = map (taffine a c) (lower_facets fs).
  Proof.
    induction fs as [|f fs IH]; [reflexivity|]. cbn [map lower_facets filter].
    rewrite is_lower_taffine. destruct (is_lower f); cbn [map]; fold (lower_facets fs);
      fold (lower_facets (map (taffine a c) fs)); now rewrite IH.
  Qed.

  Lemma selected_taffine fs : selected (map (taffine a c) fs) = selected fs.
  Proof.
    unfold selected. rewrite lower_facets_taffine. f_equal.
    induction (lower_facets fs) as [|f l IH]; [reflexivity|]. cbn. now rewrite IH.
  Qed.

  Lemma gval_taffine f y x : gval (taffine a c f) ((a * y + c) :: x) == gval f (y :: x).
  Proof.
    unfold gval, taffine, f_ny. cbn [fnormal foffset].
    destruct (fnormal f) as [|ny nx]; cbn [hd tl]; rewrite ?qdot_cons.
    - assert (E0 : forall p, qdot p [] = 0) by (intros [|? ?]; reflexivity).
      rewrite !E0. field. lra.
    - field. lra.
  Qed.

  Lemma ddist_taffine f y x :
    ~ f_ny f == 0 -> ddist (taffine a c f) ((a * y + c) :: x) == a * ddist f (y :: x).
  Proof.
    intros Hny. destruct (ny_nonempty f Hny) as [nx Hn].
    unfold ddist, taffine. rewrite Hn. unfold f_ny at 3 4. rewrite Hn. cbn [fnormal foffset hd tl f_ny].
    rewrite !qdot_cons. field. split; lra.
  Qed.

  Lemma hull_distance_taffine tol lf y x :
    (forall f, In f lf -> ~ f_ny f == 0) ->
    orel a (hull_distance tol lf (y :: x))
           (hull_distance (a * tol) (map (taffine a c) lf) ((a * y + c) :: x)).
  Proof.
    intros Hny. unfold hull_distance, hull_distance_with.
    apply hull_logic_scale; [reflexivity|]. rewrite map_map.
    induction lf as [|f lf IH]; cbn [map]; constructor.
    - unfold srel. apply ddist_taffine. apply Hny. now left.
    - apply IH. intros g Hg. apply Hny. now right.
  Qed.

  Lemma contract_taffine fs P :
    (forall p, In p P -> p <> []) ->
    contract_h1 fs P -> contract_h2 fs P ->
    contract_h1 (map (taffine a c) fs) (map (paffine a c) P) /\
    contract_h2 (map (taffine a c) fs) (map (paffine a c) P).
  Proof.
    intros Hne H1 H2.
    assert (G : forall f p, p <> [] -> gval (taffine a c f) (paffine a c p) == gval f p).
    { intros f [|y x] Hp; [congruence|]. unfold paffine. cbn [hd tl]. apply gval_taffine. }
    split.
    - intros f' p' Hf Hp. apply in_map_iff in Hf as (f & <- & Hf).
      apply in_map_iff in Hp as (p & <- & Hp). rewrite G by now apply Hne. now apply H1.
    - intros f' v Hf Hv. rewrite lower_facets_taffine in Hf.
      apply in_map_iff in Hf as (f & <- & Hf). cbn [taffine fverts] in Hv.
      destruct (H2 f v Hf Hv) as [Hlt Hg]. rewrite map_length. split; [exact Hlt|].
      assert (E : nth v (map (paffine a c) P) [] = paffine a c (nth v P [])).
      { apply nth_map_lt. exact Hlt. }
      rewrite E, G; [exact Hg|]. apply Hne. now apply nth_In.
  Qed.
End Scale.

Lemma qdot_scale_r k p n : qdot p (map (Qmult k) n) == k * qdot p n.
Proof.
  revert n; induction p as [|p0 p IH]; intros [|n0 n]; cbn [map]; unfold qdot; cbn; try ring.
  fold (qdot p (map (Qmult k) n)). fold (qdot p n). rewrite IH. ring.
Qed.

Lemma fscale_invariant k f p :
  0 < k ->
  is_lower (fscale k f) = is_lower f /\ gval (fscale k f) p == k * gval f p /\
  (~ f_ny f == 0 -> ddist (fscale k f) p == ddist f p).
Proof.
  intros Hk.
  assert (Eny : f_ny (fscale k f) == k * f_ny f).
  { unfold f_ny, fscale. cbn [fnormal]. destruct (fnormal f); cbn; ring. }
  assert (Eg : gval (fscale k f) p == k * gval f p).
  { unfold gval, fscale. cbn [fnormal foffset]. rewrite qdot_scale_r. ring. }
  split; [|split; [exact Eg|]].
  - unfold is_lower. apply Bool.eq_true_iff_eq. rewrite !Qltb_lt. rewrite Eny.
    split; intros H; nra.
  - intros Hny. rewrite !ddist_gval, Eg, Eny. field. split; lra.
Qed.
