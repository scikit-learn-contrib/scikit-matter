(* Proofs about Model/PCovRFit.v (layer D: control flow and shape book-keeping of PCovR.fit).
   stdlib style. *)
From Coq Require Import ZArith QArith List Bool Lia Arith.
Import ListNotations.
From Verif Require Import PCovRFit.

Section Ctrl.
  Variables n m : nat.
  Local Open Scope Z_scope.

  (* what an integer n_components has to satisfy, given how the solver is resolved *)
  Definition int_ok (sv : solver) (z : Z) : Prop :=
    match fit_solver n m sv (VInt z) with
    | SvFull => 0 <= z <= mn n m
    | SvRandomized => 1 <= z <= mn n m
    | SvArpack => 1 <= z < mn n m
    | _ => False
    end.

  Lemma fit_solver_auto v :
    fit_solver n m SvAuto v = SvFull \/ fit_solver n m SvAuto v = SvRandomized.
  Proof.
    cbn [fit_solver]. destruct (Nat.max n m <=? 500)%nat; [now left|].
    destruct v as [z|q|]; [| |now left];
      match goal with |- context [if ?b then _ else _] => destruct b end; auto.
  Qed.

  Lemma fit_solver_arpack sv v : fit_solver n m sv v = SvArpack <-> sv = SvArpack.
  Proof.
    destruct sv; try (cbn [fit_solver]; split; congruence).
    destruct (fit_solver_auto v) as [-> | ->]; split; congruence.
  Qed.

  Lemma fit_solver_never_auto sv v : fit_solver n m sv v <> SvAuto.
  Proof.
    destruct sv; try (cbn [fit_solver]; congruence).
    destruct (fit_solver_auto v) as [-> | ->]; congruence.
  Qed.

  (* the n_components guard of the decomposition that the resolved solver calls *)
  Definition guard_of (sv : solver) (v : ncv) : outcome nat :=
    match fit_solver n m sv v with
    | SvFull => guard_full n m v
    | SvArpack | SvRandomized => guard_trunc n m sv v
    | _ => Err ErrSolver
    end.

  (* past its two type checks, fit is that guard *)
  Lemma fit_ctrl_checked nc sv sp rg : sp <> SpOther -> rg <> RgOther ->
    fit_ctrl n m nc sv sp rg
    = let v := resolve_nc n m sv nc in
      obind (guard_of sv v) (fun k => Ok (mk_ctrl k (fit_solver n m sv v) (fit_space n m sp))).
  Proof.
    intros Hsp Hrg. unfold guard_of.
    destruct sp; try congruence; destruct rg; try congruence; cbn [fit_ctrl];
      destruct (fit_solver n m sv (resolve_nc n m sv nc)); reflexivity.
  Qed.

  Lemma fit_ctrl_Ok nc sv sp rg c :
    fit_ctrl n m nc sv sp rg = Ok c -> sp <> SpOther /\ rg <> RgOther.
  Proof. destruct sp; try discriminate; destruct rg; try discriminate; split; discriminate. Qed.

  Lemma guard_of_int sv z k :
    guard_of sv (VInt z) = Ok k <-> int_ok sv z /\ k = Z.to_nat z.
  Proof.
    unfold guard_of, int_ok.
    destruct (fit_solver n m sv (VInt z)) eqn:Hfs; cbn [guard_full guard_trunc];
      try (split; [discriminate | tauto]).
    - destruct (Z.leb_spec 0 z), (Z.leb_spec z (mn n m)); cbn [andb negb];
        (split; [intros [= <-] | intros [Hk ->]]; (reflexivity || lia || (split; [lia | reflexivity]))).
    - apply fit_solver_arpack in Hfs; subst sv.
      destruct (Z.leb_spec 1 z), (Z.leb_spec z (mn n m)), (Z.eqb_spec z (mn n m)); cbn [andb negb];
        (split; [intros [= <-] | intros [Hk ->]]; (reflexivity || lia || (split; [lia | reflexivity]))).
    - assert (Hsv : match sv with SvArpack => true | _ => false end = false)
        by (destruct sv; try reflexivity; discriminate Hfs).
      rewrite Hsv.
      destruct (Z.leb_spec 1 z), (Z.leb_spec z (mn n m)); cbn [andb negb];
        (split; [intros [= <-] | intros [Hk ->]]; (reflexivity || lia || (split; [lia | reflexivity]))).
  Qed.

  (* an admissible integer n_components is accepted, with these values; the converse is fit_ctrl_int_Ok *)
  Theorem fit_ctrl_int_accepts z sv sp rg :
    sp <> SpOther -> rg <> RgOther -> int_ok sv z ->
    fit_ctrl n m (NCInt z) sv sp rg
    = Ok (mk_ctrl (Z.to_nat z) (fit_solver n m sv (VInt z)) (fit_space n m sp)).
  Proof.
    intros Hsp Hrg Hok. rewrite fit_ctrl_checked by assumption. cbn [resolve_nc]. cbv zeta.
    now rewrite (proj2 (guard_of_int sv z _) (conj Hok eq_refl)).
  Qed.

  Theorem fit_ctrl_int_Ok z sv sp rg c :
    fit_ctrl n m (NCInt z) sv sp rg = Ok c ->
    sp <> SpOther /\ rg <> RgOther /\ int_ok sv z.
  Proof.
    intros H. destruct (fit_ctrl_Ok _ _ _ _ _ H) as [Hsp Hrg].
    rewrite fit_ctrl_checked in H by assumption. cbn [resolve_nc] in H. cbv zeta in H.
    destruct (guard_of sv (VInt z)) eqn:E; try discriminate H.
    apply guard_of_int in E. tauto.
  Qed.

  (* every k of the property's quantifier (1 <= k <= min(n, m)) is accepted by the solvers
     'auto', 'full', 'randomized', and by 'arpack' iff k < min(n, m); n_components_ = k *)
  Theorem fit_ctrl_quantifier (k : nat) sv sp rg :
    (1 <= k <= Nat.min n m)%nat -> sp <> SpOther -> rg <> RgOther ->
    sv = SvAuto \/ sv = SvFull \/ sv = SvRandomized \/ (sv = SvArpack /\ (k < Nat.min n m)%nat) ->
    exists fs, fit_ctrl n m (NCInt (Z.of_nat k)) sv sp rg = Ok (mk_ctrl k fs (fit_space n m sp))
               /\ fs <> SvAuto /\ fs <> SvOther /\ (sv <> SvAuto -> fs = sv).
  Proof.
    intros Hk Hsp Hrg Hsv.
    exists (fit_solver n m sv (VInt (Z.of_nat k))).
    assert (Hfs : sv <> SvAuto -> fit_solver n m sv (VInt (Z.of_nat k)) = sv)
      by (destruct sv; congruence || reflexivity).
    assert (Hok : int_ok sv (Z.of_nat k) /\ fit_solver n m sv (VInt (Z.of_nat k)) <> SvOther).
    { unfold int_ok, mn.
      destruct Hsv as [->|[->|[->|[-> Hlt]]]];
        [destruct (fit_solver_auto (VInt (Z.of_nat k))) as [-> | ->] | cbn [fit_solver] ..];
        (split; [lia | congruence]). }
    rewrite (fit_ctrl_int_accepts _ _ _ _ Hsp Hrg (proj1 Hok)), Nat2Z.id.
    repeat split; [apply fit_solver_never_auto | apply Hok | exact Hfs].
  Qed.

  Lemma fit_ctrl_none sv sp rg :
    fit_ctrl n m NCNone sv sp rg
    = fit_ctrl n m (NCInt (match sv with SvArpack => mn n m - 1 | _ => mn n m end)) sv sp rg.
  Proof. reflexivity. Qed.

  Theorem fit_ctrl_default sv sp rg :
    (1 <= Nat.min n m)%nat -> sp <> SpOther -> rg <> RgOther ->
    sv = SvAuto \/ sv = SvFull \/ sv = SvRandomized ->
    exists fs, fit_ctrl n m NCNone sv sp rg = Ok (mk_ctrl (Nat.min n m) fs (fit_space n m sp)).
  Proof.
    intros Hmin Hsp Hrg Hsv.
    destruct (fit_ctrl_quantifier (Nat.min n m) sv sp rg) as [fs [H _]]; try assumption; try lia.
    { tauto. }
    exists fs. rewrite <- H, fit_ctrl_none. destruct Hsv as [->|[->| ->]]; reflexivity.
  Qed.

  Theorem fit_ctrl_default_arpack sp rg :
    (2 <= Nat.min n m)%nat -> sp <> SpOther -> rg <> RgOther ->
    fit_ctrl n m NCNone SvArpack sp rg
    = Ok (mk_ctrl (Nat.min n m - 1) SvArpack (fit_space n m sp)).
  Proof.
    intros Hmin Hsp Hrg.
    destruct (fit_ctrl_quantifier (Nat.min n m - 1) SvArpack sp rg) as [fs [H [_ [_ Hfs]]]];
      try assumption; try lia.
    { right; right; right; split; [reflexivity|lia]. }
    rewrite Hfs in H by congruence. rewrite <- H, fit_ctrl_none.
    replace (mn n m - 1) with (Z.of_nat (Nat.min n m - 1)) by (unfold mn; lia). reflexivity.
  Qed.

End Ctrl.

Section Shapes.
  Local Open Scope nat_scope.

  Lemma reshape_vec n : 0 < n -> reshape_r_m1 [n] n = Some [n; 1].
  Proof.
    intros Hn. unfold reshape_r_m1, size; cbn [fold_right].
    rewrite Nat.mul_1_r.
    destruct (n =? 0) eqn:E; [apply Nat.eqb_eq in E; lia|].
    rewrite Nat.mod_same, Nat.div_same by lia. reflexivity.
  Qed.

  Lemma reshape_mat n p : 0 < n -> reshape_r_m1 [n; p] n = Some [n; p].
  Proof.
    intros Hn. unfold reshape_r_m1, size; cbn [fold_right].
    rewrite Nat.mul_1_r.
    destruct (n =? 0) eqn:E; [apply Nat.eqb_eq in E; lia|].
    rewrite (Nat.mul_comm n p), Nat.mod_mul, Nat.div_mul by lia. reflexivity.
  Qed.

  Lemma matmul22 i j l : matmul [i; j] [j; l] = Some [i; l].
  Proof. cbn [matmul]. rewrite Nat.eqb_refl. reflexivity. Qed.
  Lemma matmul21 i j : matmul [i; j] [j] = Some [i].
  Proof. cbn [matmul]. rewrite Nat.eqb_refl. reflexivity. Qed.
  Lemma addsh_refl a : addsh a a = Some a.
  Proof. unfold addsh. destruct (list_eq_dec Nat.eq_dec a a); congruence. Qed.
  Lemma reshape_to_col a : reshape_to [a; 1] [a] = Some [a].
  Proof.
    unfold reshape_to, size; cbn [fold_right]. rewrite !Nat.mul_1_r, Nat.eqb_refl. reflexivity.
  Qed.

  (* number of target columns and trailing dimensions of everything that inherits y's rank *)
  Definition pcols (y : yform) : nat := match y with Y1 => 1 | Y2 p => p end.
  Definition ytail (y : yform) : shape := match y with Y1 => [] | Y2 p => [p] end.

  (* admissible ways for the weights to arrive: from the regressor, from lstsq, or passed with
     shape (m, p) - or (m,) when there is a single target *)
  Definition w_ok (m : nat) (y : yform) (w : wform) : Prop :=
    match w with
    | WRegressor | WLstsq => True
    | WGiven s => s = [m; pcols y] \/ (pcols y = 1 /\ s = [m])
    end.

  Definition fitted_spec (n m : nat) (c : ctrl) (y : yform) : fitted :=
    let k := c_k c in
    mk_fitted c [m; pcols y] [n; pcols y] [m; k] [k; m] (k :: ytail y) (m :: ytail y) [k; m] [k].

  Lemma w_shape_spec n m y w : 0 < n -> 0 < m -> w_ok m y w ->
    match w with
    | WRegressor => reshape_r_m1 (tr match y with Y1 => [m] | Y2 p => [p; m] end) m
    | WLstsq => matmul [m; n] [n; pcols y]
    | WGiven s => reshape_r_m1 s m
    end = Some [m; pcols y].
  Proof.
    intros Hn Hm Hw. destruct w as [| |s].
    - destruct y; cbn [tr rev app pcols]; [apply reshape_vec | apply reshape_mat]; assumption.
    - apply matmul22.
    - destruct Hw as [-> | [Hp ->]]; [apply reshape_mat; assumption|].
      rewrite Hp. apply reshape_vec; assumption.
  Qed.

  Lemma yhat_shape_spec n y : 0 < n -> reshape_r_m1 (y_shape n y) n = Some [n; pcols y].
  Proof.
    intros Hn. destruct y; cbn [y_shape pcols]; [apply reshape_vec | apply reshape_mat]; assumption.
  Qed.

  Theorem pre_shapes_spec n m y w : 0 < n -> 0 < m -> w_ok m y w ->
    pre_shapes n m y w = Some ([m; pcols y], [n; pcols y]).
  Proof.
    intros Hn Hm Hw. unfold pre_shapes. rewrite yhat_shape_spec by assumption. cbn [sbind].
    rewrite w_shape_spec by assumption. reflexivity.
  Qed.

  Theorem fit_shapes_spec n m c y w :
    0 < n -> 0 < m -> c_k c <= Nat.min n m -> w_ok m y w ->
    fit_shapes n m c y w = Some (fitted_spec n m c y).
  Proof.
    intros Hn Hm Hk Hw. unfold fit_shapes, fitted_spec.
    assert (Hkk : Nat.min (c_k c) (if c_sample c then n else m) = c_k c)
      by (destruct (c_sample c); lia).
    rewrite Hkk. set (k := c_k c) in *.
    rewrite yhat_shape_spec by assumption. cbn [sbind].
    rewrite (w_shape_spec n m y w) by assumption. cbn [sbind].
    assert (HYm : reshape_to (y_shape n y) [n; pcols y] = Some [n; pcols y]).
    { unfold reshape_to, size. destruct y; cbn [y_shape pcols fold_right];
        rewrite ?Nat.mul_1_r, Nat.eqb_refl; reflexivity. }
    rewrite HYm. cbn [sbind].
    destruct (c_sample c); destruct y; cbn [tr rev app multi_dot y_is_1d pcols ytail];
      repeat (rewrite ?addsh_refl, ?matmul22, ?reshape_to_col;
              progress cbn [sbind multi_dot tr rev app]);
      reflexivity.
  Qed.

  Theorem method_shapes_spec n m c y q :
    method_shapes m (fitted_spec n m c y) q
    = Some [[q; c_k c]; [q; m]; q :: ytail y; q :: ytail y].
  Proof.
    unfold method_shapes, fitted_spec.
    cbn [f_components f_ptx f_pxy f_pty tr rev app].
    rewrite !matmul22. cbn [sbind]. rewrite !matmul22. cbn [sbind].
    destruct y; cbn [ytail]; rewrite ?matmul21, ?matmul22; cbn [sbind];
      rewrite ?matmul21, ?matmul22; reflexivity.
  Qed.

  (* the clause of C14: a one-dimensional y yields one-dimensional predictions and coefficient
     vectors (and a two-dimensional y two-dimensional ones), for every accepted configuration *)
  Theorem shapes_1d n m (k : nat) sv sp rg w q :
    (1 <= k <= Nat.min n m) -> sp <> SpOther -> rg <> RgOther ->
    sv = SvAuto \/ sv = SvFull \/ sv = SvRandomized \/ (sv = SvArpack /\ k < Nat.min n m) ->
    forall y, w_ok m y w ->
    exists f, fit_model n m (NCInt (Z.of_nat k)) sv sp rg y w = Ok f
      /\ c_k (f_ctrl f) = k
      /\ f_pxt f = [m; k] /\ f_ptx f = [k; m]
      /\ f_pxy f = m :: ytail y /\ f_pty f = k :: ytail y
      /\ method_shapes m f q = Some [[q; k]; [q; m]; q :: ytail y; q :: ytail y].
  Proof.
    intros Hk Hsp Hrg Hsv y Hw.
    destruct (fit_ctrl_quantifier n m k sv sp rg Hk Hsp Hrg Hsv) as [fs [Hc _]].
    assert (Hpre : fit_model n m (NCInt (Z.of_nat k)) sv sp rg y w
                   = obind (fit_ctrl n m (NCInt (Z.of_nat k)) sv sp rg) (fun c =>
                       match fit_shapes n m c y w with Some f => Ok f | None => Err ErrReshape end)).
    { unfold fit_model. rewrite pre_shapes_spec by (try assumption; lia).
      destruct sp; try congruence; destruct rg; try congruence; reflexivity. }
    rewrite Hpre, Hc. cbn [obind].
    rewrite fit_shapes_spec; cbn [c_k]; try lia; try assumption.
    eexists; split; [reflexivity|].
    rewrite method_shapes_spec. cbn. repeat split; reflexivity.
  Qed.
End Shapes.

(* non-vacuity / sanity: concrete evaluations of the model *)
Example fit_model_example_1d :
  fit_model 6 3 (NCInt 2) SvAuto SpNone RgNone Y1 WRegressor
  = Ok (mk_fitted (mk_ctrl 2 SvFull false) [3; 1]%nat [6; 1]%nat [3; 2]%nat [2; 3]%nat [2]%nat [3]%nat
                  [2; 3]%nat [2]%nat).
Proof. vm_compute. reflexivity. Qed.

Example fit_model_example_rejections :
  fit_model 6 3 (NCInt 4) SvFull SpNone RgNone Y1 WRegressor = Err ErrNCompRange
  /\ fit_model 6 3 (NCInt 3) SvArpack SpNone RgNone Y1 WRegressor = Err ErrArpackAll
  /\ fit_model 6 3 (NCFloat 2.5) SvFull SpNone RgNone Y1 WRegressor = Err ErrNCompType
  /\ fit_model 6 3 (NCInt 9) SvOther SpNone RgNone Y1 WRegressor = Err ErrSolver
  /\ fit_model 6 3 (NCInt 9) SvOther SpOther RgOther Y1 WRegressor = Err ErrSpace
  /\ fit_model 6 3 (NCInt 2) SvFull SpSample RgPrecomputed (Y2 2) (WGiven [3]%nat) = Err ErrReshape.
Proof. vm_compute. repeat split; reflexivity. Qed.
