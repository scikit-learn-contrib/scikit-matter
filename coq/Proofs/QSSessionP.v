(* Proofs about the session model (Model/QSSession.v): no call of the estimator writes the
   caller's arrays; the hyper-parameters in force at any moment are determined by the
   configuration calls (constructor, set_params) addressed to that estimator alone, last write
   wins; fit reads every one of them when it runs, so a fit after ANY history is the fresh fit of
   Model/QuickShift.v for the parameters in force. *)
From Verif Require Import ListXP QSSession.
Local Close Scope Z_scope.
Local Open Scope nat_scope.

Lemma qrun_cons S o ops : fst (qrun S (o :: ops)) = fst (qrun (fst (qstep S o)) ops).
Proof. cbn [qrun]. destruct (qstep S o) as [S1 b]. cbn [fst]. destruct (qrun S1 ops). reflexivity. Qed.

Lemma qrun_app a : forall S b, fst (qrun S (a ++ b)) = fst (qrun (fst (qrun S a)) b).
Proof.
  induction a as [|o a IH]; intros S b; [reflexivity|].
  rewrite <- app_comm_cons, !qrun_cons. apply IH.
Qed.

(* the caller's data are changed by the caller's own writes only *)
Definition caller_step (D : list qdata) (o : qop) : list qdata :=
  match o with
  | SetW d w => let q := nth d D no_data in upd_nth d (mkData (q_dim q) (q_D q) w) D
  | _ => D
  end.

Lemma qstep_frame S o :
  s_cuts (fst (qstep S o)) = s_cuts S /\ s_cells (fst (qstep S o)) = s_cells S /\
  length (s_est (fst (qstep S o))) = length (s_est S) /\
  s_data (fst (qstep S o)) = caller_step (s_data S) o.
Proof.
  destruct o as [e c s2 sh cell|e d|e sh|e cell|e c|e s2|d w|e]; cbn [qstep];
    [destruct (construct _ _ _ _ _)|destruct (fit_guard _ _ _); [|destruct (est_fit _ _)]| | | | | | ];
    cbn; rewrite ?upd_nth_length; repeat split.
Qed.

Lemma qrun_frame ops : forall S,
  s_cuts (fst (qrun S ops)) = s_cuts S /\ s_cells (fst (qrun S ops)) = s_cells S /\
  length (s_est (fst (qrun S ops))) = length (s_est S) /\
  s_data (fst (qrun S ops)) = fold_left caller_step ops (s_data S).
Proof.
  induction ops as [|o ops IH]; intros S; [repeat split|]. rewrite qrun_cons. cbn [fold_left].
  destruct (IH (fst (qstep S o))) as (A & B & C & D), (qstep_frame S o) as (A' & B' & C' & D').
  rewrite <- D'. repeat split; congruence.
Qed.

Lemma qrun_cells ops S : s_cells (fst (qrun S ops)) = s_cells S.
Proof. apply qrun_frame. Qed.

(* [reconf e o]: o (re)binds est[e] or sets one of the parameters fit reads.  set_params(scale=..)
   is NOT among them: the attribute is not read after __init__ *)
Definition reconf (e : nat) (o : qop) : bool :=
  match o with
  | New e' _ _ _ _ => Nat.eqb e' e
  | SetShell e' _ => Nat.eqb e' e
  | SetCell e' _ => Nat.eqb e' e
  | SetCut e' _ => Nat.eqb e' e
  | _ => false
  end.

(* the parameters fit reads *)
Definition pars (x : qest) := (e_cut x, e_shell x, e_cell x, e_cell0 x).

Lemma pars_inv x y : pars x = pars y ->
  e_cut x = e_cut y /\ e_shell x = e_shell y /\ e_cell x = e_cell y /\ e_cell0 x = e_cell0 y.
Proof. unfold pars. intros H. injection H as A B C D. repeat split; assumption. Qed.

Lemma get_set S e' e x : e < length (s_est S) ->
  get_est (set_est S e' x) e = if e' =? e then x else get_est S e.
Proof.
  intros H. unfold get_est, set_est. cbn.
  destruct (Nat.eqb_spec e' e) as [->|Hn]; [apply nth_upd_nth_eq, H|apply nth_upd_nth_neq, Hn].
Qed.

Lemma cfg_step_pars cuts x x' o : pars x = pars x' -> pars (cfg_step cuts x o) = pars (cfg_step cuts x' o).
Proof.
  intros H. destruct (pars_inv x x' H) as (A & B & C & D).
  destruct o as [e c s2 sh cell|e d|e sh|e cell|e c|e s2|d w|e]; cbn [cfg_step]; try exact H.
  - destruct (construct _ _ _ _ _); [reflexivity|exact H].
  - unfold pars. cbn. congruence.
  - unfold pars. cbn. congruence.
  - unfold pars. cbn. congruence.
Qed.

Lemma fold_cfg_pars cuts l : forall x x', pars x = pars x' ->
  pars (fold_left (cfg_step cuts) l x) = pars (fold_left (cfg_step cuts) l x').
Proof.
  induction l as [|o l IH]; intros x x' H; [exact H|]. cbn [fold_left]. apply IH. apply cfg_step_pars. exact H.
Qed.

Lemma qstep_est S o e : e < length (s_est S) ->
  pars (get_est (fst (qstep S o)) e) =
  pars (if reconf e o then cfg_step (s_cuts S) (get_est S e) o else get_est S e).
Proof.
  intros He.
  destruct o as [e' c s2 sh cell|e' d|e' sh|e' cell|e' c|e' s2|d w|e']; cbn [qstep reconf cfg_step];
    [destruct (construct _ _ _ _ _)|destruct (fit_guard _ _ _); [|destruct (est_fit _ _)]| | | | | | ];
    cbn [fst]; rewrite ?get_set by exact He; try destruct (Nat.eqb_spec e' e) as [->|]; reflexivity.
Qed.

(* the parameters in force after a history = the configuration calls addressed to est[e], in order *)
Theorem session_params_projection e ops : forall S, e < length (s_est S) ->
  pars (get_est (fst (qrun S ops)) e) =
  pars (fold_left (cfg_step (s_cuts S)) (filter (reconf e) ops) (get_est S e)).
Proof.
  induction ops as [|o ops IH]; intros S He; [reflexivity|].
  destruct (qstep_frame S o) as (Hc & _ & Hl & _).
  rewrite qrun_cons. rewrite IH by (rewrite Hl; exact He). rewrite Hc.
  cbn [filter]. pose proof (qstep_est S o e He) as H1.
  destruct (reconf e o); cbn [fold_left]; apply fold_cfg_pars; exact H1.
Qed.

Lemma filter_no_reconf e mid : forallb (fun o => negb (reconf e o)) mid = true -> filter (reconf e) mid = [].
Proof.
  induction mid as [|o mid IH]; intros H; [reflexivity|]. cbn [forallb] in H.
  apply andb_prop in H. destruct H as [Ho Hr]. apply negb_true_iff in Ho. cbn [filter]. rewrite Ho. apply IH. exact Hr.
Qed.

(* after the last call [o] that configures est[e], whatever follows, its parameters are those [o] left *)
Lemma pars_last S0 pre o mid e :
  e < length (s_est S0) -> reconf e o = true ->
  forallb (fun o => negb (reconf e o)) mid = true ->
  pars (get_est (fst (qrun S0 (pre ++ o :: mid))) e) =
  pars (cfg_step (s_cuts S0) (get_est (fst (qrun S0 pre)) e) o).
Proof.
  intros He Ho Hmid. rewrite qrun_app, qrun_cons.
  destruct (qrun_frame pre S0) as (Hc & _ & Hl0 & _). set (S1 := fst (qrun S0 pre)) in *.
  assert (He1 : e < length (s_est S1)) by (rewrite Hl0; exact He).
  destruct (qstep_frame S1 o) as (_ & _ & Hl & _).
  rewrite session_params_projection by (rewrite Hl; exact He1).
  rewrite (filter_no_reconf e mid Hmid). cbn [fold_left].
  rewrite (qstep_est S1 o e He1), Ho, Hc. reflexivity.
Qed.

Definition fit_obs (r : option (list (option nat))) : qobs :=
  match r with Some R => ObsFit R (centres R) | None => ObsErr end.

Lemma fit_obs_pars S e d y : pars (get_est S e) = pars y ->
  fit_guard (s_cells S) y (get_data S d) = false ->
  snd (qstep S (Fit e d)) = fit_obs (est_fit y (get_data S d)).
Proof.
  intros HP Hg. destruct (pars_inv _ _ HP) as (A & B & C & D). cbn [qstep].
  unfold fit_guard, est_fit in *. rewrite A, B, C, D, Hg. destruct (fit_of_params _ _ _ _); reflexivity.
Qed.

(* ... and a fit then shows the fresh fit for them; [y] is any record with those parameters *)
Lemma fit_after_last S0 pre mid e d :
  e < length (s_est S0) -> forallb (fun o => negb (reconf e o)) mid = true ->
  forall o y, reconf e o = true ->
  pars (cfg_step (s_cuts S0) (get_est (fst (qrun S0 pre)) e) o) = pars y ->
  let S := fst (qrun S0 (pre ++ o :: mid)) in
  let q := get_data S d in
  fit_guard (s_cells S0) y q = false ->
  snd (qstep S (Fit e d)) = fit_obs (est_fit y q).
Proof.
  intros He Hmid o y Ho Hy S q Hg. apply fit_obs_pars.
  - rewrite <- Hy. apply pars_last; assumption.
  - unfold S. rewrite qrun_cells. exact Hg.
Qed.

Lemma guard_same cells cell x q : e_cell x = cell -> e_cell0 x = cell ->
  fit_guard cells x q = cell_mismatch cells cell (q_dim q).
Proof. intros A B. unfold fit_guard. rewrite A, B. apply orb_diag. Qed.
