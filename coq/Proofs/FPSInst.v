(* Instances of the generic distance-table theorems: plain FPS (squared Euclidean distance
   between candidates), any square matrix read by rows or by columns (PCov-FPS), and the
   matrices a*XX^T + (4-a)*YY^T whose induced distance is the mixed squared distance. *)
From Verif Require Import ListX FPS FPSExt ListXP.

Section FPSInst.
  Variable cs : list (list Z).
  Variable d : nat.
  Hypothesis Hdim : Forall (fun c => length c = d) cs.
  Let n := length cs.
  Notation cnd i := (nth i cs []).

  Definition fps_dist (j l : nat) : Z := sqdist (cnd j) (cnd l).

  Lemma cnd_len i : (i < n)%nat -> length (cnd i) = d.
  Proof. intros Hi. rewrite Forall_forall in Hdim. apply Hdim, nth_In, Hi. Qed.

  Theorem fps_newdist l :
    (l < n)%nat ->
    newdist (fps_norms cs) (fps_cross cs) l = map (fun j => fps_dist j l) (seq 0 n).
  Proof.
    intros Hl. unfold newdist, fps_norms, fps_cross.
    rewrite map2_map, (map_seq_nth _ cs []). fold n. apply map_ext_in. intros j Hj.
    apply in_seq in Hj. change 0 with (sqn []). rewrite map_nth.
    apply sqdist_expand. rewrite !cnd_len by lia. reflexivity.
  Qed.

  Lemma fps_dist_nonneg j l : 0 <= fps_dist j l.
  Proof. apply sqdist_nonneg. Qed.
  Lemma fps_dist_self i : fps_dist i i = 0.
  Proof. apply sqdist_self. Qed.
End FPSInst.

Section MatDist.
  Variable D : list (list Z).
  Variable n : nat.
  Hypothesis Hsq : sqmat n D.

  (* new_dist of _PCovFPS._update_hausdorff is the vector of distances induced by D *)
  Lemma mat_newdist axis1 l : (l < n)%nat ->
    newdist (diagm D) (pcov_cross axis1 D) l = map (fun j => mdist axis1 D j l) (seq 0 n).
  Proof.
    destruct Hsq as [HL Hr]. intros Hl. unfold newdist, diagm, pcov_cross, mdist, mentry. rewrite HL.
    rewrite nth_map_seq by exact Hl.
    assert (Hc : (if axis1 then col D l else nth l D [])
                 = map (fun j => if axis1 then nth l (nth j D []) 0 else nth j (nth l D []) 0) (seq 0 n)).
    { destruct axis1; [unfold col; rewrite <- HL; exact (map_seq_nth (fun r => nth l r 0) D [])|].
      rewrite Forall_forall in Hr. rewrite <- (Hr (nth l D [])) by (apply nth_In; lia).
      rewrite <- (map_id (nth l D [])) at 1. apply (map_seq_nth (fun x => x)). }
    now rewrite Hc, map2_map.
  Qed.
End MatDist.

(* Gram-type matrices 4 K~ = a X X^T + (4 - a) Y Y^T.
   Sample direction: X, Y the rows; feature direction: X the feature vectors (columns of the
   data) and Y the rows of C_Y = (X^T X)^(-1/2) X^T Y.  _PCovFPS reads rows (axis 0) or
   columns (axis 1) of it; the matrix is symmetric, so both give the same distance. *)
Section PCovInst.
  Variable X Y : list (list Z).
  Variable dx dy : nat.
  Variable a : Z.
  Hypothesis Ha : 0 <= a <= 4.
  Hypothesis HdimX : Forall (fun c => length c = dx) X.
  Hypothesis HdimY : Forall (fun c => length c = dy) Y.
  Hypothesis HlenY : length Y = length X.
  Let n := length X.
  Let D := kernel4 a X Y.

  Definition pcov_dist (j l : nat) : Z :=
    a * sqdist (nth j X []) (nth l X []) + (4 - a) * sqdist (nth j Y []) (nth l Y []).

  Lemma kernel4_sq : sqmat n D.
  Proof.
    unfold sqmat, D, kernel4. fold n. split; [now rewrite map_length, seq_length|].
    apply Forall_forall. intros r Hr. apply in_map_iff in Hr as (l & <- & _).
    now rewrite map_length, seq_length.
  Qed.

  Lemma kernel4_entry i j : (i < n)%nat -> (j < n)%nat -> mentry D i j = kentry a X Y i j.
  Proof. intros Hi Hj. unfold mentry, D, kernel4. fold n. now rewrite !nth_map_seq. Qed.

  Lemma kentry_sym i j : kentry a X Y i j = kentry a X Y j i.
  Proof. unfold kentry. now rewrite (dot_comm (nth i X [])), (dot_comm (nth i Y [])). Qed.

  Lemma kentry_dist j l :
    (j < n)%nat -> (l < n)%nat ->
    kentry a X Y j j + kentry a X Y l l - 2 * kentry a X Y l j = pcov_dist j l.
  Proof using HdimX HdimY HlenY.
    intros Hj Hl. unfold kentry, pcov_dist.
    assert (HX : length (nth j X []) = length (nth l X [])).
    { rewrite Forall_forall in HdimX. rewrite !HdimX; [reflexivity| |]; apply nth_In; assumption. }
    assert (HY : length (nth j Y []) = length (nth l Y [])).
    { rewrite Forall_forall in HdimY. rewrite !HdimY; [reflexivity| |]; apply nth_In; rewrite HlenY; assumption. }
    rewrite <- (sqdist_expand _ _ HX), <- (sqdist_expand _ _ HY). unfold sqn. lia.
  Qed.

  Theorem pcov_newdist axis1 l :
    (l < n)%nat ->
    newdist (diagm D) (pcov_cross axis1 D) l = map (fun j => pcov_dist j l) (seq 0 n).
  Proof.
    intros Hl. rewrite (mat_newdist D n kernel4_sq axis1 l Hl).
    apply map_ext_in. intros j Hj. apply in_seq in Hj. unfold mdist.
    rewrite !kernel4_entry, <- kentry_dist by lia.
    destruct axis1; [rewrite (kentry_sym j l)|]; reflexivity.
  Qed.

  Lemma pcov_dist_nonneg j l : 0 <= pcov_dist j l.
  Proof.
    unfold pcov_dist.
    pose proof (sqdist_nonneg (nth j X []) (nth l X [])).
    pose proof (sqdist_nonneg (nth j Y []) (nth l Y [])). clear - Ha H H0. nia.
  Qed.
  Lemma pcov_dist_self i : pcov_dist i i = 0.
  Proof. unfold pcov_dist. rewrite !sqdist_self. clear. lia. Qed.
End PCovInst.

(* (X^T)^T = X for rectangular X: feature selection on X^T sees the rows of X *)
Lemma transpose_involutive w (X : list (list Z)) :
  Forall (fun c => length c = w) X -> transpose (length X) (transpose w X) = X.
Proof.
  intros Hd. unfold transpose at 1.
  rewrite <- (map_id X) at 3. rewrite (map_seq_nth (fun r => r) X []).
  apply map_ext_in. intros i Hi. apply in_seq in Hi.
  unfold col at 1. unfold transpose. rewrite map_map.
  assert (Hlen : length (nth i X []) = w).
  { rewrite Forall_forall in Hd. apply Hd, nth_In. lia. }
  rewrite <- (map_id (nth i X [])) at 1. rewrite (map_seq_nth (fun x => x) (nth i X []) 0), Hlen.
  apply map_ext_in. intros j Hj. unfold col.
  rewrite (nth_map_lt (fun r => nth j r 0) X i 0 []) by lia. reflexivity.
Qed.
