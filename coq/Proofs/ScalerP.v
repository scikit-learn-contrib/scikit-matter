(* C11 — fit is a function of the weighted column means and variances only ([sc_fit_mxE]) and
   transform is an entrywise affine map ([sc_transform_mxE]); the theorems follow from how weighted
   means and variances behave under such maps.  Sections Ones and Steps ([ones_dot], [rows_of*],
   [ev_average]) also serve the C12 proofs (KernelNormP, KernelCutP). *)
From mathcomp Require Import all_ssreflect all_algebra.
From Verif Require Import MExp MExpMx MxBoxP Scaler ScalerMx.
Set Implicit Arguments.
Unset Strict Implicit.
Unset Printing Implicit Defensive.
Import Order.Theory GRing.Theory Num.Theory.
Local Open Scope ring_scope.

Section Stats.
  Variable F : rcfType.
  Variable n : nat.
  Implicit Types (w : 'cV[F]_n).

  Definition affine (k p : nat) (A : 'M[F]_(k, p)) (m c : 'rV[F]_p) : 'M[F]_(k, p) :=
    \matrix_(i, j) ((A i j - m ord0 j) * c ord0 j).
  Definition sqdev (k p : nat) (A : 'M[F]_(k, p)) (m : 'rV[F]_p) : 'M[F]_(k, p) :=
    \matrix_(i, j) (A i j - m ord0 j) ^+ 2.

  Lemma wvarE p w (A : 'M[F]_(n, p)) : wvar w A = wmean w (sqdev A (wmean w A)).
  Proof. by []. Qed.

  Lemma wmean_affine p w (A : 'M[F]_(n, p)) (m c : 'rV[F]_p) :
    wsum w != 0 ->
    wmean w (affine A m c) = \row_j ((wmean w A ord0 j - m ord0 j) * c ord0 j).
  Proof.
    move=> S0; apply/rowP => j; rewrite !mxE.
    have -> : \sum_i w i ord0 * (affine A m c) i j
              = ((\sum_i w i ord0 * A i j) - m ord0 j * wsum w) * c ord0 j.
      rewrite /wsum mulr_sumr -sumrB mulr_suml; apply: eq_bigr => i _.
      by rewrite !mxE mulrA mulrBr [m _ _ * _]mulrC.
    by rewrite mulrAC mulrBl mulfK.
  Qed.

  Lemma wvar_affine p w (A : 'M[F]_(n, p)) (m c : 'rV[F]_p) :
    wsum w != 0 ->
    wvar w (affine A m c) = \row_j ((wvar w A) ord0 j * (c ord0 j) ^+ 2).
  Proof.
    move=> S0; rewrite !wvarE wmean_affine //.
    have -> : sqdev (affine A m c) (\row_j ((wmean w A ord0 j - m ord0 j) * c ord0 j))
              = affine (sqdev A (wmean w A)) 0 (\row_j (c ord0 j) ^+ 2).
      apply/matrixP => i j; rewrite !mxE subr0 -mulrBl -exprMn.
      by rewrite opprB addrA subrK.
    by rewrite wmean_affine //; apply/rowP => j; rewrite !mxE subr0.
  Qed.

  (* np.average(A, weights = w, axis = 0) = (w . A) / sum w *)
  Lemma wmeanZ p w (A : 'M[F]_(n, p)) : wmean w A = (wsum w)^-1 *: (w^T *m A).
  Proof.
    apply/rowP => j; rewrite !mxE mulrC; congr (_ * _).
    by apply: eq_bigr => i _; rewrite !mxE.
  Qed.

  Lemma wsum_scale (a : F) w : wsum (a *: w) = a * wsum w.
  Proof. by rewrite /wsum mulr_sumr; apply: eq_bigr => i _; rewrite mxE. Qed.

  Lemma wmean_scale_w p (a : F) w (A : 'M[F]_(n, p)) :
    a != 0 -> wsum w != 0 -> wmean (a *: w) A = wmean w A.
  Proof.
    move=> a0 S0; rewrite !wmeanZ wsum_scale linearZ /= -scalemxAl scalerA.
    by rewrite invfM mulrAC mulVf // mul1r.
  Qed.

  Lemma wsum_ones : wsum (const_mx 1 : 'cV[F]_n) = n%:R.
  Proof.
    rewrite /wsum (eq_bigr (fun=> 1)) => [|i _]; last by rewrite mxE.
    by rewrite sumr_const card_ord.
  Qed.

  Lemma wmean_eq_on_support p w (A B : 'M[F]_(n, p)) :
    (forall i, w i ord0 != 0 -> forall j, A i j = B i j) -> wmean w A = wmean w B.
  Proof.
    move=> agree; apply/rowP => j; rewrite !mxE; congr (_ / _); apply: eq_bigr => i _.
    by case: (eqVneq (w i ord0) 0) => [->|/agree ->//]; rewrite !mul0r.
  Qed.

  Lemma wvar_eq_on_support p w (A B : 'M[F]_(n, p)) :
    (forall i, w i ord0 != 0 -> forall j, A i j = B i j) -> wvar w A = wvar w B.
  Proof.
    move=> H; rewrite !wvarE (wmean_eq_on_support H); apply: wmean_eq_on_support => i /H e j.
    by rewrite !mxE e.
  Qed.
End Stats.

Section StatsMaps.
  Variable F : rcfType.
  Variables (n p : nat).

  Lemma shift_affine k (B : 'M[F]_(k, p)) (c : 'rV[F]_p) :
    B + rows_of k c = affine B (- c) (const_mx 1).
  Proof. by apply/matrixP => i j; rewrite !mxE opprK mulr1. Qed.

  Lemma scale_affine k (B : 'M[F]_(k, p)) (a : F) : a *: B = affine B 0 (const_mx a).
  Proof. by apply/matrixP => i j; rewrite !mxE subr0 mulrC. Qed.

  Lemma wmean_ones (B : 'M[F]_(n, p)) :
    wmean (const_mx 1) B = \row_j ((\sum_i B i j) / n%:R).
  Proof.
    apply/rowP => j; rewrite !mxE wsum_ones; congr (_ / _).
    by apply: eq_bigr => i _; rewrite mxE mul1r.
  Qed.

  (* the population variance *)
  Lemma wvar_ones (B : 'M[F]_(n, p)) j :
    (wvar (const_mx 1) B) ord0 j = (\sum_i (B i j - (\sum_l B l j) / n%:R) ^+ 2) / n%:R.
  Proof.
    rewrite wvarE !wmean_ones mxE; congr (_ / _).
    by apply: eq_bigr => i _; rewrite !mxE.
  Qed.

  Variables (w : 'cV[F]_n) (A : 'M[F]_(n, p)).
  Hypothesis S0 : wsum w != 0.

  Lemma wmean_shift (c : 'rV[F]_p) : wmean w (A + rows_of n c) = wmean w A + c.
  Proof.
    rewrite shift_affine wmean_affine //; move: (wmean w A) => m.
    by apply/rowP => j; rewrite !mxE opprK mulr1.
  Qed.

  Lemma wvar_shift (c : 'rV[F]_p) : wvar w (A + rows_of n c) = wvar w A.
  Proof.
    rewrite shift_affine wvar_affine //; move: (wvar w A) => v.
    by apply/rowP => j; rewrite !mxE expr1n mulr1.
  Qed.

  Lemma wmean_rescale (a : F) : wmean w (a *: A) = a *: wmean w A.
  Proof.
    rewrite scale_affine wmean_affine //; move: (wmean w A) => m.
    by apply/rowP => j; rewrite !mxE subr0 mulrC.
  Qed.

  Lemma wvar_rescale (a : F) : wvar w (a *: A) = a ^+ 2 *: wvar w A.
  Proof.
    rewrite scale_affine wvar_affine //; move: (wvar w A) => v.
    by apply/rowP => j; rewrite !mxE mulrC.
  Qed.
End StatsMaps.

Section Replicated.
  Variable F : rcfType.
  Variables (n N : nat) (w : 'cV[F]_n) (f : 'I_N -> 'I_n).
  (* w_i is the number of rows of the replicated data that are copies of row i *)
  Hypothesis count : forall i, w i ord0 = #|[pred k | f k == i]|%:R.

  Lemma sum_rep (g : 'I_n -> F) : \sum_(k < N) g (f k) = \sum_(i < n) w i ord0 * g i.
  Proof.
    rewrite (partition_big f xpredT) //=; apply: eq_bigr => i _.
    rewrite (eq_bigr (fun=> g i)) => [|k /eqP -> //].
    by rewrite sumr_const count mulr_natl.
  Qed.

  Lemma wsum_rep : wsum (const_mx 1 : 'cV[F]_N) = wsum w.
  Proof.
    rewrite wsum_ones /wsum -[N]card_ord -sum1_card natr_sum.
    rewrite (sum_rep (fun=> 1)); apply: eq_bigr => i _; by rewrite mulr1.
  Qed.

  Lemma wmean_rep p (A : 'M[F]_(n, p)) :
    wmean (const_mx 1) (\matrix_(k, j) A (f k) j : 'M[F]_(N, p)) = wmean w A.
  Proof.
    apply/rowP => j; rewrite !mxE wsum_rep; congr (_ / _).
    rewrite -(sum_rep (fun i => A i j)); apply: eq_bigr => k _.
    by rewrite !mxE mul1r.
  Qed.

  Lemma wvar_rep p (A : 'M[F]_(n, p)) :
    wvar (const_mx 1) (\matrix_(k, j) A (f k) j : 'M[F]_(N, p)) = wvar w A.
  Proof.
    rewrite !wvarE wmean_rep -(wmean_rep (sqdev A (wmean w A))); congr (wmean _ _).
    by apply/matrixP => k j; rewrite !mxE.
  Qed.
End Replicated.

Section Ones.
  Variable F : rcfType.

  Lemma ones_dot n (v : 'cV[F]_n) : ((const_mx 1 : 'cV[F]_n)^T *m v) ord0 ord0 = wsum v.
  Proof. by rewrite trmx_const ones_mulmx. Qed.

  Lemma sumZ_row d (a : F) (r : 'rV[F]_d) : \sum_j (a *: r) ord0 j = a * \sum_j r ord0 j.
  Proof. by rewrite mulr_sumr; apply: eq_bigr => j _; rewrite mxE. Qed.

  Lemma rows_ofE k p (r : 'rV[F]_p) : rows_of k r = (const_mx 1 : 'cV[F]_k) *m r.
  Proof. by apply/matrixP => i j; rewrite !mxE big_ord1 !mxE mul1r. Qed.

  Lemma rows_of0 k p : rows_of k (0 : 'rV[F]_p) = 0.
  Proof. by apply/matrixP => i j; rewrite !mxE. Qed.

  Lemma rows_of_scale k p (a : F) (r : 'rV[F]_p) : rows_of k (a *: r) = a *: rows_of k r.
  Proof. by apply/matrixP => i j; rewrite !mxE. Qed.
End Ones.

Section Steps.
  Variable F : rcfType.
  Variable env : env_mx F.
  Lemma evId n : eval_mx env (MId n) = 1%:M. Proof. exact: MExpMx.evId. Qed.
  Lemma evMul m n p (a : mexp m n) (b : mexp n p) :
    eval_mx env (MMul a b) = eval_mx env a *m eval_mx env b.
  Proof. exact: MExpMx.evMul. Qed.
  Lemma evScale m n (c : mexp 1 1) (a : mexp m n) :
    eval_mx env (MScale c a) = (eval_mx env c) ord0 ord0 *: eval_mx env a.
  Proof. exact: MExpMx.evScale. Qed.
  Lemma evDiagOf n (a : mexp n n) : eval_mx env (MDiagOf a) = \col_i (eval_mx env a) i i.
  Proof. exact: MExpMx.evDiagOf. Qed.

  Lemma ones_mul_row k p (r : 'rV[F]_p) i j : ((const_mx 1 : 'cV[F]_k) *m r) i j = r ord0 j.
  Proof. by rewrite ones_mulmx big_ord1. Qed.

  (* np.average(A, weights = W, axis = 0) *)
  Lemma ev_average n p t (W : mexp n 1) (A : mexp n p) :
    eval_mx env (MScale (MMap Frecip t (MMul (MTr (MOnes n 1)) W)) (MMul (MTr W) A))
    = wmean (eval_mx env W) (eval_mx env A).
  Proof. by rewrite evScaleRecip !evMul !evTr evOnes ones_dot wmeanZ. Qed.
End Steps.

Section Formulas.
  Variable F : rcfType.
  Variables (cfg : sc_cfg) (n d : nat).
  Variables (X : 'M[F]_(n, d)) (w : 'cV[F]_n).
  Let env := sc_env_fit_mx X w.
  Let ew := sc_effw cfg w.

  Lemma ev_vX : eval_mx env (vX n d) = X.
  Proof. exact: unbox_box. Qed.
  Lemma ev_vW : eval_mx env (vW n) = w.
  Proof. exact: unbox_box. Qed.

  Lemma ev_wts : eval_mx env (sc_wts cfg n) = if has_w cfg then (wsum w)^-1 *: w else const_mx 1.
  Proof.
    by rewrite /sc_wts; case: (has_w cfg) => //; rewrite evScaleRecip evMul evTr evOnes ones_dot ev_vW.
  Qed.

  Lemma ev_avg (p : nat) (A : mexp n p) :
    sc_wok cfg w -> eval_mx env (sc_avg cfg n A) = wmean ew (eval_mx env A).
  Proof.
    rewrite /sc_avg ev_average ev_wts /sc_wok /ew /sc_effw; case: (has_w cfg) => //= S0.
    by rewrite wmean_scale_w // invr_eq0.
  Qed.

  Lemma ev_xmean : sc_wok cfg w -> eval_mx env (sc_xmean cfg n d) = wmean ew X.
  Proof. by move=> ok; rewrite /sc_xmean ev_avg // ev_vX. Qed.

  Lemma ev_var : sc_wok cfg w -> eval_mx env (sc_var cfg n d) = wvar ew X.
  Proof.
    move=> ok; rewrite /sc_var ev_avg // wvarE; congr (wmean _ _).
    rewrite evMap evSub evMul evOnes ev_xmean // ev_vX -rows_ofE.
    by apply/matrixP => i j; rewrite !mxE /= expr2.
  Qed.

  Lemma ev_varsum : sc_wok cfg w ->
    (eval_mx env (sc_varsum cfg n d)) ord0 ord0 = \sum_j (wvar ew X) ord0 j.
  Proof. by move=> ok; rewrite /sc_varsum evMul evOnes ev_var // mulmx_ones. Qed.

  Lemma ev_avgmean : sc_wok cfg w ->
    (eval_mx env (sc_avgmean cfg n d)) ord0 ord0 = (\sum_j (wmean ew X) ord0 j) / d%:R.
  Proof.
    move=> ok; rewrite /sc_avgmean evScaleRecip !evMul !evOnes ones_ones ev_xmean //.
    by rewrite mxE mulmx_ones mulrC.
  Qed.

  Definition scale_of (v : 'rV[F]_d) : 'rV[F]_d :=
    if with_std cfg then
      if column_wise cfg then map_mx Num.sqrt v else const_mx (Num.sqrt (\sum_j v ord0 j))
    else const_mx 1.

  Lemma ev_scale : sc_wok cfg w -> eval_mx env (sc_scale cfg n d) = scale_of (wvar ew X).
  Proof.
    move=> ok; rewrite /sc_scale /scale_of; case: (with_std cfg) => //.
    case: (column_wise cfg); first by rewrite evMap ev_var.
    rewrite evMul evMap evOnes [map_mx _ _]mx11_scalar [in X in X%:M]mxE /= ev_varsum //.
    by rewrite mul_scalar_mx scalemx_const mulr1.
  Qed.

  Definition mean_of (m : 'rV[F]_d) : 'rV[F]_d := if with_mean cfg then m else 0.

  Lemma mean_of_ij (m : 'rV[F]_d) j :
    (mean_of m) ord0 j = if with_mean cfg then m ord0 j else 0.
  Proof. by rewrite /mean_of; case: (with_mean cfg); rewrite // mxE. Qed.

  Lemma scale_of_ij (v : 'rV[F]_d) j :
    (scale_of v) ord0 j = if with_std cfg then
                            if column_wise cfg then Num.sqrt (v ord0 j)
                            else Num.sqrt (\sum_l v ord0 l)
                          else 1.
  Proof.
    by rewrite /scale_of; case: (with_std cfg); first case: (column_wise cfg); rewrite mxE.
  Qed.

  Lemma ev_mean : sc_wok cfg w -> eval_mx env (sc_mean cfg n d) = mean_of (wmean ew X).
  Proof.
    by move=> ok; rewrite /sc_mean /mean_of; case: (with_mean cfg) => //; rewrite ev_xmean.
  Qed.

  Definition guard_of (rtol atol : F) (m v : 'rV[F]_d) : bool :=
    if with_std cfg then
      if column_wise cfg then [exists j, v ord0 j < atol + `|m ord0 j| * rtol]
      else \sum_j v ord0 j < `|(\sum_j m ord0 j) / d%:R| * rtol + atol
    else false.

  Lemma ev_guard rtol atol : sc_wok cfg w ->
    sc_guard_mx cfg n d rtol atol env = guard_of rtol atol (wmean ew X) (wvar ew X).
  Proof.
    move=> ok; rewrite /sc_guard_mx /guard_of; case: (with_std cfg) => //.
    case: (column_wise cfg); first by rewrite ev_var // ev_xmean.
    by rewrite ev_varsum // ev_avgmean.
  Qed.

  (* fit as a function of (n < 2), the weighted means and the weighted variances only *)
  Definition fit_of (rtol atol : F) (small : bool) (m v : 'rV[F]_d) : option ('rV[F]_d * 'rV[F]_d) :=
    if small then None else if guard_of rtol atol m v then None else Some (mean_of m, scale_of v).

  (* Use as [(sc_fit_mxE _ _ _ ok)]: a [//] after [rewrite sc_fit_mxE] also tries to close, by
     conversion, what is left of a goal relating two different fits, and takes seconds to fail. *)
  Lemma sc_fit_mxE rtol atol : sc_wok cfg w ->
    sc_fit_mx cfg rtol atol X w = fit_of rtol atol (n < 2)%N (wmean ew X) (wvar ew X).
  Proof.
    by move=> ok; rewrite /sc_fit_mx /fit_of -/env ev_guard // ev_mean // ev_scale.
  Qed.
End Formulas.

Section TransformFormulas.
  Variable F : rcfType.
  Variables (d k : nat) (st : 'rV[F]_d * 'rV[F]_d) (Y : 'M[F]_(k, d)).
  Let env := sc_env_tr_mx Y st.1 st.2.

  Lemma ev_vY : eval_mx env (vY d k) = Y.
  Proof. exact: unbox_box. Qed.
  Lemma ev_vMean : eval_mx env (vMean d) = st.1.
  Proof. exact: unbox_box. Qed.
  Lemma ev_vScale : eval_mx env (vScale d) = st.2.
  Proof. exact: unbox_box. Qed.

  Lemma sc_transform_mxE :
    sc_transform_mx st Y = affine Y st.1 (map_mx (fun x => x^-1) st.2).
  Proof.
    rewrite /sc_transform_mx -/env /sc_transform.
    rewrite evHad evSub !evMul evMap !evOnes ev_vY ev_vMean ev_vScale -!rows_ofE.
    by apply/matrixP => i j; rewrite !mxE.
  Qed.

  Lemma sc_transform_mx_ij i j :
    (sc_transform_mx st Y) i j = (Y i j - st.1 ord0 j) / st.2 ord0 j.
  Proof. by rewrite sc_transform_mxE !mxE. Qed.

  Lemma sc_inverse_mx_ij i j :
    (sc_inverse_mx st Y) i j = Y i j * st.2 ord0 j + st.1 ord0 j.
  Proof.
    rewrite /sc_inverse_mx -/env /sc_inverse.
    rewrite evAdd evHad !evMul !evOnes ev_vY ev_vMean ev_vScale -!rows_ofE.
    by rewrite !mxE.
  Qed.
End TransformFormulas.

Section RoundTrip.
  Variable F : rcfType.
  Variables (d k : nat) (st : 'rV[F]_d * 'rV[F]_d).
  Hypothesis s0 : forall j, st.2 ord0 j != 0.

  Lemma sc_inverseK_nz (Y : 'M[F]_(k, d)) : sc_inverse_mx st (sc_transform_mx st Y) = Y.
  Proof.
    by apply/matrixP => i j; rewrite sc_inverse_mx_ij sc_transform_mx_ij divfK // subrK.
  Qed.

  Lemma sc_transformK_nz (T : 'M[F]_(k, d)) : sc_transform_mx st (sc_inverse_mx st T) = T.
  Proof.
    by apply/matrixP => i j; rewrite sc_transform_mx_ij sc_inverse_mx_ij addrK mulfK.
  Qed.
End RoundTrip.

Lemma sc_transform_id (F : rcfType) (d k : nat) (T : 'M[F]_(k, d)) :
  sc_transform_mx (0, const_mx 1) T = T.
Proof. by apply/matrixP => i j; rewrite sc_transform_mx_ij /= !mxE subr0 divr1. Qed.

Section FitFacts.
  Variable F : rcfType.
  Variables (cfg : sc_cfg) (n d : nat).
  Variables (rtol atol : F).

  Lemma fit_some (X : 'M[F]_(n, d)) (w : 'cV[F]_n) st :
    sc_wok cfg w -> sc_fit_mx cfg rtol atol X w = Some st ->
    let ew := sc_effw cfg w in
    [/\ (1 < n)%N, wsum ew != 0, ~~ guard_of cfg rtol atol (wmean ew X) (wvar ew X),
        st.1 = mean_of cfg (wmean ew X) & st.2 = scale_of cfg (wvar ew X)].
  Proof.
    move=> ok; rewrite (sc_fit_mxE _ _ _ ok) /fit_of ltnNge.
    case n1: (1 < n)%N => //=; case: (guard_of _ _ _ _ _) => // -[<-]; split=> //.
    move: ok; rewrite /sc_wok /sc_effw; case: (has_w cfg) => //= _.
    by rewrite wsum_ones pnatr_eq0 -lt0n ltnW.
  Qed.

  Lemma scale_of_pos (m v : 'rV[F]_d) :
    0 < atol -> 0 <= rtol -> ~~ guard_of cfg rtol atol m v ->
    forall j, 0 < (scale_of cfg v) ord0 j.
  Proof.
    move=> a0 r0; rewrite /guard_of /scale_of; case: (with_std cfg); last first.
      by move=> _ j; rewrite mxE ltr01.
    case: (column_wise cfg).
      rewrite negb_exists => /forallP H j; rewrite mxE sqrtr_gt0.
      have := H j; rewrite -leNgt; apply: lt_le_trans.
      by rewrite ltr_paddr // mulr_ge0.
    rewrite -leNgt => H j; rewrite mxE sqrtr_gt0; apply: lt_le_trans H.
    by rewrite ltr_paddl // mulr_ge0.
  Qed.

  Lemma fit_scale_pos (X : 'M[F]_(n, d)) (w : 'cV[F]_n) st :
    sc_wok cfg w -> sc_fit_mx cfg rtol atol X w = Some st ->
    0 < atol -> 0 <= rtol -> forall j, 0 < st.2 ord0 j.
  Proof. by move=> ok /(fit_some ok) [_ _ g _ ->] a0 r0; apply: scale_of_pos g. Qed.

  Lemma guard_var_ge (m v : 'rV[F]_d) :
    with_std cfg -> ~~ guard_of cfg rtol atol m v ->
    if column_wise cfg then forall j, atol + `|m ord0 j| * rtol <= v ord0 j
    else `|(\sum_j m ord0 j) / d%:R| * rtol + atol <= \sum_j v ord0 j.
  Proof.
    rewrite /guard_of => ->; case: (column_wise cfg); last by rewrite -leNgt.
    by rewrite negb_exists => /forallP H j; rewrite leNgt.
  Qed.

  Lemma scale_of_sqr (m v : 'rV[F]_d) :
    0 <= atol -> 0 <= rtol -> with_std cfg -> ~~ guard_of cfg rtol atol m v ->
    forall j, (scale_of cfg v) ord0 j ^+ 2
              = if column_wise cfg then v ord0 j else \sum_j v ord0 j.
  Proof.
    move=> a0 r0 ws g j; have := guard_var_ge ws g; rewrite /scale_of ws.
    case: (column_wise cfg) => H; rewrite mxE sqr_sqrtr //.
      by apply: le_trans (H j); rewrite addr_ge0 // mulr_ge0.
    by apply: le_trans H; rewrite addr_ge0 // mulr_ge0.
  Qed.
End FitFacts.

Section Theorems.
  Variable F : rcfType.
  Variables (cfg : sc_cfg) (n d : nat).
  Variables (rtol atol : F) (X : 'M[F]_(n, d)) (w : 'cV[F]_n).
  Variable st : 'rV[F]_d * 'rV[F]_d.
  Let ew := sc_effw cfg w.
  Hypothesis ok : sc_wok cfg w.
  Hypothesis fitS : sc_fit_mx cfg rtol atol X w = Some st.

  Lemma sc_mean_zero : with_mean cfg -> wmean ew (sc_transform_mx st X) = 0.
  Proof.
    move=> wm; have [n1 S0 g e1 e2] := fit_some ok fitS.
    rewrite sc_transform_mxE wmean_affine // e1 /mean_of wm; apply/rowP => j.
    by rewrite [LHS]mxE subrr mul0r mxE.
  Qed.

  Lemma sc_wvar_transform j :
    (wvar ew (sc_transform_mx st X)) ord0 j = (wvar ew X) ord0 j / (st.2 ord0 j) ^+ 2.
  Proof.
    have [n1 S0 g e1 e2] := fit_some ok fitS.
    by rewrite sc_transform_mxE wvar_affine // !mxE exprVn.
  Qed.

  Lemma sc_unit_variance_columnwise :
    with_std cfg -> column_wise cfg -> 0 < atol -> 0 <= rtol ->
    wvar ew (sc_transform_mx st X) = const_mx 1.
  Proof.
    move=> ws cw a0 r0; have [n1 S0 g e1 e2] := fit_some ok fitS.
    apply/rowP => j; rewrite sc_wvar_transform [RHS]mxE.
    have := scale_of_sqr (ltW a0) r0 ws g j; rewrite cw -e2 => <-.
    by rewrite divff // expf_neq0 // lt0r_neq0 // (fit_scale_pos ok fitS).
  Qed.

  Lemma sc_unit_total_variance :
    with_std cfg -> ~~ column_wise cfg -> 0 < atol -> 0 <= rtol ->
    \sum_j (wvar ew (sc_transform_mx st X)) ord0 j = 1.
  Proof.
    move=> ws /negbTE cw a0 r0; have [n1 S0 g e1 e2] := fit_some ok fitS.
    have sq j := scale_of_sqr (ltW a0) r0 ws g j; rewrite cw in sq.
    rewrite (eq_bigr (fun j => (wvar ew X) ord0 j / (\sum_j (wvar ew X) ord0 j))); last first.
      by move=> j _; rewrite sc_wvar_transform e2 sq.
    rewrite -mulr_suml divff // lt0r_neq0 //.
    have := guard_var_ge ws g; rewrite cw; apply: lt_le_trans.
    by rewrite ltr_paddl // mulr_ge0.
  Qed.

  Lemma sc_scale_bounded :
    with_std cfg -> 0 <= atol -> 0 <= rtol ->
    if column_wise cfg
    then forall j, (st.2 ord0 j) ^+ 2 = (wvar ew X) ord0 j
                   /\ atol + `|(wmean ew X) ord0 j| * rtol <= (st.2 ord0 j) ^+ 2
    else forall j, (st.2 ord0 j) ^+ 2 = \sum_j (wvar ew X) ord0 j
                   /\ `|(\sum_j (wmean ew X) ord0 j) / d%:R| * rtol + atol <= (st.2 ord0 j) ^+ 2.
  Proof.
    move=> ws a0 r0; have [n1 S0 g e1 e2] := fit_some ok fitS.
    have sq j := scale_of_sqr a0 r0 ws g j; have := guard_var_ge ws g.
    by case: (column_wise cfg) sq => sq H j; rewrite e2 sq.
  Qed.
End Theorems.

Lemma rescale_bound (F : rcfType) (a t u v : F) :
  1 <= `|a| -> 0 <= t -> 0 <= u -> t + u <= v -> t + `|a| * u <= a ^+ 2 * v.
Proof.
  move=> a1 t0 u0 H.
  have a0 : 0 <= `|a| by apply: normr_ge0.
  have a2 : `|a| <= a ^+ 2.
    by rewrite -real_normK ?num_real // expr2 -{1}[`|a|]mul1r ler_wpmul2r.
  have a21 : 1 <= a ^+ 2 by apply: le_trans a1 a2.
  have : a ^+ 2 * (t + u) <= a ^+ 2 * v by rewrite ler_wpmul2l // sqr_ge0.
  apply: le_trans; rewrite mulrDr ler_add //.
    by rewrite -{1}[t]mul1r ler_wpmul2r.
  by rewrite ler_wpmul2r.
Qed.

Section Invariances.
  Variable F : rcfType.
  Variables (cfg : sc_cfg) (n d : nat).
  Variables (rtol atol : F) (X : 'M[F]_(n, d)) (w : 'cV[F]_n).
  Let ew := sc_effw cfg w.
  Hypothesis ok : sc_wok cfg w.

  Lemma sc_transform_formula st k (Y : 'M[F]_(k, d)) i j :
    sc_fit_mx cfg rtol atol X w = Some st ->
    (sc_transform_mx st Y) i j
    = (Y i j - (if with_mean cfg then (wmean ew X) ord0 j else 0))
      / (if with_std cfg then
           if column_wise cfg then Num.sqrt ((wvar ew X) ord0 j)
           else Num.sqrt (\sum_l (wvar ew X) ord0 l)
         else 1).
  Proof.
    move=> fitS; have [n1 S0 g e1 e2] := fit_some ok fitS.
    by rewrite sc_transform_mx_ij e1 e2 mean_of_ij scale_of_ij.
  Qed.

  Lemma sc_fit_accepted :
    isSome (sc_fit_mx cfg rtol atol X w)
    = ~~ ((n < 2)%N
          || with_std cfg
             && (if column_wise cfg
                 then [exists j, (wvar ew X) ord0 j < atol + `|(wmean ew X) ord0 j| * rtol]
                 else \sum_j (wvar ew X) ord0 j
                      < `|(\sum_j (wmean ew X) ord0 j) / d%:R| * rtol + atol)).
  Proof.
    rewrite (sc_fit_mxE _ _ _ ok) /fit_of /guard_of -/ew; case: (n < 2)%N => //=.
    by case: (with_std cfg) => //=; case: (if column_wise cfg then _ else _).
  Qed.

  Lemma sc_shift st st' (c : 'rV[F]_d) :
    sc_fit_mx cfg rtol atol X w = Some st ->
    sc_fit_mx cfg rtol atol (X + rows_of n c) w = Some st' ->
    st'.2 = st.2
    /\ (with_mean cfg -> forall k (Y : 'M[F]_(k, d)),
          sc_transform_mx st' (Y + rows_of k c) = sc_transform_mx st Y).
  Proof.
    move=> fitS fitS'; have [n1 S0 g e1 e2] := fit_some ok fitS.
    have [_ _ g' e1' e2'] := fit_some ok fitS'.
    move: e1' e2'; rewrite wmean_shift // wvar_shift // -e2 => e1' e2'; split=> // wm k Y.
    apply/matrixP => i j; rewrite !sc_transform_mx_ij e2' e1' e1 /mean_of wm.
    move: (wmean _ X) => m; rewrite !mxE.
    by congr (_ / _); rewrite opprD addrA addrAC addrK.
  Qed.

  Lemma sc_shift_fit st (c : 'rV[F]_d) :
    rtol = 0 -> sc_fit_mx cfg rtol atol X w = Some st ->
    sc_fit_mx cfg rtol atol (X + rows_of n c) w
    = Some (if with_mean cfg then st.1 + c else st.1, st.2).
  Proof.
    move=> r0 fitS; have [n1 S0 g e1 e2] := fit_some ok fitS.
    rewrite (sc_fit_mxE _ _ _ ok) wmean_shift // wvar_shift // /fit_of ltnNge n1 /=.
    have -> : guard_of cfg rtol atol (wmean ew X + c) (wvar ew X)
              = guard_of cfg rtol atol (wmean ew X) (wvar ew X).
      rewrite /guard_of r0; case: (with_std cfg) => //.
      case: (column_wise cfg); last by rewrite !mulr0.
      by apply: eq_existsb => j; rewrite !mulr0.
    by rewrite (negbTE g) e1 e2 /mean_of; case: (with_mean cfg).
  Qed.

  Lemma sc_rescale st st' (a : F) :
    a != 0 -> with_std cfg ->
    sc_fit_mx cfg rtol atol X w = Some st ->
    sc_fit_mx cfg rtol atol (a *: X) w = Some st' ->
    forall k (Y : 'M[F]_(k, d)),
      sc_transform_mx st' (a *: Y) = Num.sg a *: sc_transform_mx st Y.
  Proof.
    move=> a0 ws fitS fitS' k Y; have [n1 S0 g e1 e2] := fit_some ok fitS.
    have [_ _ g' e1' e2'] := fit_some ok fitS'.
    move: e1' e2'; rewrite wmean_rescale // wvar_rescale // => e1' e2'.
    have m' : st'.1 = a *: st.1.
      by rewrite e1' e1 /mean_of; case: (with_mean cfg); rewrite ?scaler0.
    have s' j : st'.2 ord0 j = `|a| * st.2 ord0 j.
      rewrite e2' e2 /scale_of ws; case: (column_wise cfg); rewrite !mxE.
        by rewrite sqrtrM ?sqr_ge0 // sqrtr_sqr.
      by rewrite sumZ_row sqrtrM ?sqr_ge0 // sqrtr_sqr.
    have sg : a / `|a| = Num.sg a by rewrite {1}(numEsg a) mulfK // normr_eq0.
    apply/matrixP => i j; rewrite [RHS]mxE !sc_transform_mx_ij m' s' !mxE -mulrBr invfM -sg.
    by rewrite mulrACA.
  Qed.

  Lemma sc_rescale_accepted st (a : F) :
    sc_fit_mx cfg rtol atol X w = Some st -> 1 <= `|a| -> 0 <= atol -> 0 <= rtol ->
    isSome (sc_fit_mx cfg rtol atol (a *: X) w).
  Proof.
    move=> fitS a1 t0 r0; have [n1 S0 g e1 e2] := fit_some ok fitS.
    rewrite (sc_fit_mxE _ _ _ ok) wmean_rescale // wvar_rescale // /fit_of ltnNge n1 /=.
    suff -> : guard_of cfg rtol atol (a *: wmean ew X) (a ^+ 2 *: wvar ew X) = false by [].
    move: (wmean ew X) (wvar ew X) g => m v.
    rewrite /guard_of; case ws: (with_std cfg) => //.
    case: (column_wise cfg).
      rewrite negb_exists => /forallP H; apply/negbTE; rewrite negb_exists; apply/forallP => j.
      have := H j; rewrite -!leNgt [(a *: m) _ _]mxE [(_ *: v) _ _]mxE normrM -mulrA => Hj.
      by apply: rescale_bound => //; rewrite mulr_ge0.
    rewrite -!leNgt => H; apply/negbTE; rewrite -leNgt !sumZ_row -mulrA normrM addrC -mulrA.
    apply: rescale_bound => //; first by rewrite mulr_ge0.
    by rewrite addrC.
  Qed.

  Lemma sc_refit_standardised st :
    sc_fit_mx cfg rtol atol X w = Some st ->
    with_mean cfg -> with_std cfg -> 0 < atol -> atol <= 1 -> 0 <= rtol ->
    sc_fit_mx cfg rtol atol (sc_transform_mx st X) w = Some (0, const_mx 1).
  Proof.
    move=> fitS wm ws a0 a1 r0; have [n1 S0 g e1 e2] := fit_some ok fitS.
    rewrite (sc_fit_mxE _ _ _ ok) (sc_mean_zero ok fitS wm) /fit_of ltnNge n1 /=.
    rewrite /guard_of /mean_of /scale_of wm ws.
    case cw: (column_wise cfg).
      rewrite (sc_unit_variance_columnwise ok fitS ws cw a0 r0).
      have -> : [exists j, (const_mx 1 : 'rV[F]_d) ord0 j
                           < atol + `|(0 : 'rV[F]_d) ord0 j| * rtol] = false.
        apply/negbTE; rewrite negb_exists; apply/forallP => j.
        by rewrite !mxE normr0 mul0r addr0 -leNgt.
      by congr (Some (_, _)); apply/rowP => j; rewrite !mxE sqrtr1.
    rewrite (sc_unit_total_variance ok fitS ws (negbT cw) a0 r0).
    have -> : \sum_j (0 : 'rV[F]_d) ord0 j = 0.
      by rewrite big1 // => j _; rewrite mxE.
    by rewrite mul0r normr0 mul0r add0r ltNge a1 /= sqrtr1.
  Qed.
End Invariances.

Section ReplicateTheorem.
  Variable F : rcfType.
  Variables (wm ws cw : bool) (n N d : nat).
  Variables (rtol atol : F) (X : 'M[F]_(n, d)) (w : 'cV[F]_n) (f : 'I_N -> 'I_n).
  Hypothesis count : forall i, w i ord0 = #|[pred k | f k == i]|%:R.

  Lemma sc_replicate (w' : 'cV[F]_N) :
    (1 < n)%N -> (1 < N)%N ->
    sc_fit_mx (ScCfg wm ws cw false) rtol atol (\matrix_(k, j) X (f k) j : 'M[F]_(N, d)) w'
    = sc_fit_mx (ScCfg wm ws cw true) rtol atol X w.
  Proof.
    move=> n1 N1; have ok : sc_wok (ScCfg wm ws cw true) w.
      by rewrite /sc_wok /= -(wsum_rep count) wsum_ones pnatr_eq0 -lt0n ltnW.
    rewrite (sc_fit_mxE _ _ _ (isT : sc_wok (ScCfg wm ws cw false) w')) (sc_fit_mxE _ _ _ ok).
    by rewrite (ltnNge n) (ltnNge N) n1 N1 /sc_effw /= (wmean_rep count) (wvar_rep count).
  Qed.
End ReplicateTheorem.

(* the 2 x 1 data (0, 2) of the non-vacuity examples: unweighted mean 1, variance 1 *)
Section Example02.
  Variable F : rcfType.
  Definition ex02 : 'M[F]_(2, 1) := \matrix_(i, j) (i : nat)%:R *+ 2.

  Lemma two_neq0 : (2%:R : F) != 0.
  Proof. by rewrite pnatr_eq0. Qed.

  Lemma ex02_mean : wmean (const_mx 1) ex02 = const_mx 1.
  Proof.
    apply/rowP => j; rewrite wmean_ones !mxE !big_ord_recl big_ord0 !mxE /bump /=.
    by rewrite !add0r addr0; apply: divff two_neq0.
  Qed.

  Lemma ex02_var : wvar (const_mx 1) ex02 = const_mx 1.
  Proof.
    rewrite wvarE ex02_mean wmean_ones; apply/rowP => j.
    rewrite !mxE !big_ord_recl big_ord0 !mxE /bump /=.
    rewrite !add0r sqrrN expr1n addrK expr1n addr0.
    exact: divff two_neq0.
  Qed.

  Lemma sc_nonvacuous :
    sc_wok (ScCfg true true true false) (0 : 'cV[F]_2)
    /\ sc_fit_mx (ScCfg true true true false) 0 (2%:R^-1) ex02 0 = Some (const_mx 1, const_mx 1).
  Proof.
    have ok : sc_wok (ScCfg true true true false) (0 : 'cV[F]_2) by [].
    split=> //; rewrite (sc_fit_mxE _ _ _ ok) /sc_effw /= ex02_mean ex02_var.
    rewrite /fit_of /guard_of /mean_of /scale_of /=.
    have -> : [exists j, (const_mx 1 : 'rV[F]_1) ord0 j
                         < 2%:R^-1 + `|(const_mx 1 : 'rV[F]_1) ord0 j| * 0] = false.
      apply/negbTE; rewrite negb_exists; apply/forallP => j.
      by rewrite !mxE mulr0 addr0 -leNgt invf_le1 ?ler1n // ltr0n.
    congr (Some (_, _)); apply/rowP => j; by rewrite !mxE sqrtr1.
  Qed.

  Lemma sc_rescale_down_rejected :
    let cfg := ScCfg true true true false in
    isSome (sc_fit_mx cfg 0 (2%:R^-1) ex02 0)
    /\ sc_fit_mx cfg 0 (2%:R^-1) (2%:R^-1 *: ex02) 0 = None.
  Proof.
    move=> cfg; have [ok e] := sc_nonvacuous; split; first by rewrite e.
    have S0 : wsum (const_mx 1 : 'cV[F]_2) != 0 by rewrite wsum_ones two_neq0.
    rewrite (sc_fit_mxE _ _ _ ok) /sc_effw /= wmean_rescale // wvar_rescale // ex02_var.
    rewrite /fit_of /= /guard_of /=.
    suff -> : [exists j, (2%:R^-1 ^+ 2 *: (const_mx 1 : 'rV[F]_1)) ord0 j
                         < 2%:R^-1 + `|(2%:R^-1 *: wmean (const_mx 1) ex02) ord0 j| * 0] by [].
    apply/existsP; exists ord0; rewrite !mxE mulr1 mulr0 addr0.
    by rewrite expr2 -{3}[2%:R^-1]mulr1 ltr_pmul2l ?invr_gt0 ?ltr0n // invf_lt1 ?ltr0n // ltr1n.
  Qed.
End Example02.
