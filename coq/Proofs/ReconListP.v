(* List bookkeeping of Model/Recon.v (stdlib style): row selection X[idx], the zero-padding
   matrix, the neighbour-selection matrix. *)
From Coq Require Import List Arith Bool Lia.
From Verif Require Import Recon.
Import ListNotations.

Lemma nth_map_list : forall A B (f : A -> B) d d' l i, i < length l -> nth i (map f l) d = f (nth i l d').
Proof.
  intros A B f d d' l i Hi. rewrite (nth_indep _ d (f d')) by (rewrite map_length; exact Hi).
  apply map_nth.
Qed.

Lemma nth_map_seq : forall B (f : nat -> B) d n i, i < n -> nth i (map f (seq 0 n)) d = f i.
Proof.
  intros B f d n i Hi. rewrite (nth_map_list _ _ _ _ 0) by (rewrite seq_length; exact Hi).
  now rewrite seq_nth.
Qed.

(* X[idx]: one row per index, in the order of idx (duplicates and overlaps allowed) *)
Theorem select_rows_spec : forall A (idx : list nat) (X : list (list A)),
  length (select_rows idx X) = length idx /\
  forall t, t < length idx -> nth t (select_rows idx X) [] = nth (nth t idx 0) X [].
Proof.
  intros A idx X. unfold select_rows. split; [apply map_length|].
  intros t Ht. now rewrite (nth_map_list _ _ _ _ 0).
Qed.

(* the padding matrix: E[i][j] = (i == j), p rows, r columns *)
Theorem embed_rows_spec : forall p r i j, i < p -> j < r ->
  nth j (nth i (embed_rows p r) []) false = Nat.eqb i j.
Proof.
  intros p r i j Hi Hj. unfold embed_rows. rewrite nth_map_seq by exact Hi.
  now rewrite nth_map_seq by exact Hj.
Qed.

(* the selection matrix of a neighbour list: Sel[t][j] = (idx[t] == j) *)
Theorem sel_rows_spec : forall n idx t j, t < length idx -> j < n ->
  nth j (nth t (sel_rows n idx) []) false = Nat.eqb (nth t idx 0) j.
Proof.
  intros n idx t j Ht Hj. unfold sel_rows. rewrite (nth_map_list _ _ _ _ 0) by exact Ht.
  now rewrite nth_map_seq by exact Hj.
Qed.
