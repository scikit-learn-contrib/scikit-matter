(* Algebra of the reconstruction measures (ssreflect/mathcomp style).  First about plain matrices over
   a real closed field: the scaler, row norms, the ridge / least-squares contract and how its solution
   turns with the source and the target, the block rotation of zero-padded problems.  Then what the mexp
   programs of Model/Recon.v evaluate to ([eval_mx]: the fooE lemmas), and those C13 theorems whose proof
   is more than an instantiation of the first part; the others are proved in Properties/C13.v. *)
From mathcomp Require Import all_ssreflect all_algebra fingroup perm.
From Verif Require Import MExp MExpMx Recon ReconListP MxFrobP.
Set Implicit Arguments.
Unset Strict Implicit.
Unset Printing Implicit Defensive.
Import Order.Theory GRing.Theory Num.Theory.
Close Scope float_scope.
Local Open Scope ring_scope.

Section Algebra.
  Variable F : rcfType.

  Definition ones m n : 'M[F]_(m, n) := const_mx 1.

  Lemma mul_onesE m n p (A : 'M[F]_(m, n)) i j : (A *m ones n p) i j = \sum_k A i k.
  Proof. exact: mulmx_ones. Qed.

  Definition fro2 m n (A : 'M[F]_(m, n)) : F := \tr (A^T *m A).

  Lemma fro2_fn2 m n (A : 'M[F]_(m, n)) : fro2 A = fn2 A.
  Proof. by []. Qed.

  Lemma fro2_orth m n (A : 'M[F]_(m, n)) (R : 'M[F]_n) :
    R *m R^T = 1%:M -> fro2 (A *m R) = fro2 A.
  Proof. by move=> RR; rewrite !fro2_fn2 fn2_orth // (mulmx1C RR). Qed.

  Lemma fro2Z m n (c : F) (A : 'M[F]_(m, n)) : fro2 (c *: A) = c ^+ 2 * fro2 A.
  Proof. by rewrite !fro2_fn2 /fn2 ipZl ipZr mulrA expr2. Qed.

  Lemma mulmxKt m n k (A : 'M[F]_(m, n)) (R : 'M[F]_(n, k)) : R *m R^T = 1%:M -> A *m R *m R^T = A.
  Proof. by move=> RR; rewrite -mulmxA RR mulmx1. Qed.

  Lemma orthM r (A B : 'M[F]_r) :
    A^T *m A = 1%:M -> B^T *m B = 1%:M -> (A *m B)^T *m (A *m B) = 1%:M.
  Proof. by move=> AA BB; rewrite trmx_mul -mulmxA (mulmxA A^T) AA mul1mx. Qed.

  (* np.linalg.norm(R, axis=1) *)
  Definition rownorm m q (R : 'M[F]_(m, q)) : 'cV[F]_m := \col_i Num.sqrt (\sum_j (R i j) ^+ 2).

  Lemma rownorm_ge0 m q (R : 'M[F]_(m, q)) i : 0 <= rownorm R i ord0.
  Proof. by rewrite mxE sqrtr_ge0. Qed.

  Lemma rownorm_sq m q (R : 'M[F]_(m, q)) i : (rownorm R i ord0) ^+ 2 = \sum_j (R i j) ^+ 2.
  Proof. by rewrite mxE sqr_sqrtr //; apply: sumr_ge0 => j _; apply: sqr_ge0. Qed.

  Lemma rownorm_fro2 m q (R : 'M[F]_(m, q)) : \sum_i (rownorm R i ord0) ^+ 2 = fro2 R.
  Proof.
    rewrite fro2_fn2 fn2E exchange_big /=; apply: eq_bigr => i _; exact: rownorm_sq.
  Qed.

  Lemma rownorm0 m q : rownorm (0 : 'M[F]_(m, q)) = 0.
  Proof.
    apply/colP => i; rewrite !mxE big1 ?sqrtr0 // => j _.
    by rewrite mxE expr0n.
  Qed.

  Lemma rownorm_orth m q (R : 'M[F]_(m, q)) (Q : 'M[F]_q) :
    Q *m Q^T = 1%:M -> rownorm (R *m Q) = rownorm R.
  Proof.
    move=> QQ; apply/colP => i; rewrite !mxE; congr Num.sqrt.
    have E (D : 'M[F]_(m, q)) : \sum_j (D i j) ^+ 2 = (D *m D^T) i i.
      by rewrite mxE; apply: eq_bigr => j _; rewrite mxE expr2.
    by rewrite !E trmx_mul mulmxA mulmxKt.
  Qed.

  (* the rows of  A - B O  only depend on O through A O^T *)
  Lemma rownorm_resid m r (A B : 'M[F]_(m, r)) (O : 'M[F]_r) :
    O^T *m O = 1%:M -> rownorm (A - B *m O) = rownorm (A *m O^T - B).
  Proof.
    move=> OO; rewrite -(@rownorm_orth _ _ (A - B *m O) O^T) ?trmxK //.
    by rewrite mulmxBl mulmxKt //; apply: mulmx1C.
  Qed.

  Lemma rownorm_row m q (R : 'M[F]_(m, q)) i : rownorm (row i R) ord0 ord0 = rownorm R i ord0.
  Proof. by rewrite !mxE; congr Num.sqrt; apply: eq_bigr => j _; rewrite mxE. Qed.

  (* np.linalg.norm(pw) / np.sqrt(len(pw)) *)
  Definition glob m (pw : 'cV[F]_m) : F :=
    (Num.sqrt m%:R)^-1 * Num.sqrt (\sum_i (pw i ord0) ^+ 2).

  Lemma glob_ge0 m (pw : 'cV[F]_m) : 0 <= glob pw.
  Proof. by apply: mulr_ge0; rewrite ?invr_ge0 sqrtr_ge0. Qed.

  Lemma glob_rms m (pw : 'cV[F]_m) :
    (0 < m)%N -> (glob pw) ^+ 2 * m%:R = \sum_i (pw i ord0) ^+ 2.
  Proof.
    move=> m0; have mR : 0 < (m%:R : F) by rewrite ltr0n.
    rewrite /glob exprMn exprVn sqr_sqrtr ?ltW // sqr_sqrtr; last first.
      by apply: sumr_ge0 => i _; apply: sqr_ge0.
    by rewrite mulrAC mulVf ?mul1r // gt_eqF.
  Qed.

  (* StandardFlexibleScaler with its defaults: one scale for the whole matrix *)
  Section Scaler.
    Variables (n p : nat).
    Implicit Types (X : 'M[F]_(n, p)).

    Definition cmean X : 'rV[F]_p := n%:R^-1 *: (ones 1 n *m X).
    Definition center X a (A : 'M[F]_(a, p)) : 'M[F]_(a, p) := A - ones a 1 *m cmean X.
    Definition varsum X : F := \sum_j (n%:R^-1 * \sum_i (center X X i j) ^+ 2).
    Definition iscale X : F := (Num.sqrt (varsum X))^-1.
    Definition std X a (A : 'M[F]_(a, p)) : 'M[F]_(a, p) := iscale X *: center X A.

    Lemma varsum_fro2 X : varsum X = n%:R^-1 * fro2 (center X X).
    Proof. by rewrite /varsum fro2_fn2 fn2E mulr_sumr. Qed.

    Lemma varsum_ge0 X : 0 <= varsum X.
    Proof. by rewrite varsum_fro2 mulr_ge0 ?invr_ge0 ?ler0n ?fn2_ge0. Qed.

    Lemma ones_mul_ones a b c : ones a b *m ones b c = b%:R *: ones a c :> 'M[F]_(a, c).
    Proof.
      by apply/matrixP => i j; rewrite ones_ones !mxE mulr1.
    Qed.

    Lemma ones11 q (b : 'rV[F]_q) : ones 1 1 *m b = b.
    Proof. by apply/rowP => j; rewrite ones_mulmx big_ord1. Qed.

    Lemma cmeanD X (b : 'rV[F]_p) : (0 < n)%N -> cmean (X + ones n 1 *m b) = cmean X + b.
    Proof.
      move=> n0; rewrite /cmean mulmxDr scalerDr mulmxA ones_mul_ones -scalemxAl scalerA.
      by rewrite mulVf ?scale1r ?ones11 // pnatr_eq0 -lt0n.
    Qed.

    Lemma cmeanZ X (c : F) : cmean (c *: X) = c *: cmean X.
    Proof. by rewrite /cmean -scalemxAr scalerA mulrC -scalerA. Qed.

  End Scaler.

  Lemma cmean_mul a b c (X : 'M[F]_(a, b)) (A : 'M[F]_(b, c)) : cmean (X *m A) = cmean X *m A.
  Proof. by rewrite /cmean mulmxA scalemxAl. Qed.

  Lemma center_affine n p a (X : 'M[F]_(n, p)) (A : 'M[F]_(a, p)) (c : F) (b : 'rV[F]_p) :
    (0 < n)%N ->
    center (c *: X + ones n 1 *m b) (c *: A + ones a 1 *m b) = c *: center X A.
  Proof.
    move=> n0; rewrite /center cmeanD // cmeanZ mulmxDr opprD addrACA.
    by rewrite subrr addr0 -scalemxAr scalerBr.
  Qed.

  Lemma varsum_affine n p (X : 'M[F]_(n, p)) (c : F) (b : 'rV[F]_p) :
    (0 < n)%N -> varsum (c *: X + ones n 1 *m b) = c ^+ 2 * varsum X.
  Proof.
    by move=> n0; rewrite !varsum_fro2 center_affine // fro2Z mulrCA.
  Qed.

  Lemma std_affine n p a (X : 'M[F]_(n, p)) (A : 'M[F]_(a, p)) (c : F) (b : 'rV[F]_p) :
    (0 < n)%N -> 0 < c ->
    std (c *: X + ones n 1 *m b) (c *: A + ones a 1 *m b) = std X A.
  Proof.
    move=> n0 c0; rewrite /std /iscale (varsum_affine _ _ _ n0) (center_affine _ _ _ _ n0) scalerA.
    rewrite sqrtrM ?sqr_ge0 // sqrtr_sqr gtr0_norm // invfM mulrAC mulVf ?mul1r //.
    by rewrite gt_eqF.
  Qed.

  Lemma center_mul n p q a (X : 'M[F]_(n, p)) (A : 'M[F]_(a, p)) (B : 'M[F]_(p, q)) :
    center (X *m B) (A *m B) = center X A *m B.
  Proof. by rewrite /center /cmean mulmxBl mulmxA scalemxAl -!mulmxA. Qed.

  Lemma varsum_orth n p (X : 'M[F]_(n, p)) (R : 'M[F]_p) :
    R *m R^T = 1%:M -> varsum (X *m R) = varsum X.
  Proof. by move=> RR; rewrite !varsum_fro2 center_mul fro2_orth. Qed.

  Lemma std_orth n p a (X : 'M[F]_(n, p)) (A : 'M[F]_(a, p)) (R : 'M[F]_p) :
    R *m R^T = 1%:M -> std (X *m R) (A *m R) = std X A *m R.
  Proof. by move=> RR; rewrite /std /iscale varsum_orth // center_mul scalemxAl. Qed.

  Lemma center_colsum n p (X : 'M[F]_(n, p)) : (0 < n)%N -> ones 1 n *m center X X = 0.
  Proof.
    move=> n0; rewrite /center mulmxBr mulmxA ones_mul_ones /cmean -scalemxAl ones11.
    by rewrite scalerA mulfV ?scale1r ?subrr // pnatr_eq0 -lt0n.
  Qed.

  Lemma std_colsum n p (X : 'M[F]_(n, p)) : (0 < n)%N -> ones 1 n *m std X X = 0.
  Proof. by move=> n0; rewrite /std -scalemxAr center_colsum // scaler0. Qed.

  Lemma std_fro2 n p (X : 'M[F]_(n, p)) : (0 < n)%N -> 0 < varsum X -> fro2 (std X X) = n%:R.
  Proof.
    move=> n0 v0; rewrite /std fro2Z /iscale exprVn sqr_sqrtr ?ltW //.
    have -> : fro2 (center X X) = n%:R * varsum X.
      by rewrite varsum_fro2 mulrA mulfV ?mul1r // pnatr_eq0 -lt0n.
    by rewrite mulrCA mulVf ?mulr1 // gt_eqF.
  Qed.

  Lemma iscale_gt0 n p (X : 'M[F]_(n, p)) : 0 < varsum X -> 0 < iscale X.
  Proof. by move=> v0; rewrite /iscale invr_gt0 sqrtr_gt0. Qed.

  (* ridge / least-squares contract:  (X^T X + a I) W = X^T Y *)
  Definition gram n p (X : 'M[F]_(n, p)) (a : F) : 'M[F]_p := X^T *m X + a%:M.
  Definition ridge_sol n p q (X : 'M[F]_(n, p)) (Y : 'M[F]_(n, q)) (a : F) (W : 'M[F]_(p, q)) :=
    gram X a *m W = X^T *m Y.

  Lemma ridge_unique n p q (X : 'M[F]_(n, p)) (Y : 'M[F]_(n, q)) a W W' :
    gram X a \in unitmx -> ridge_sol X Y a W -> ridge_sol X Y a W' -> W' = W.
  Proof.
    move=> Au H H'; rewrite -[W]mul1mx -[W']mul1mx -(mulVmx Au) -!mulmxA.
    by rewrite [_ *m W]H [_ *m W']H'.
  Qed.

  Lemma gram0 n p (X : 'M[F]_(n, p)) : gram X 0 = X^T *m X.
  Proof. by rewrite /gram raddf0 addr0. Qed.

  Lemma gram_col n (x : 'cV[F]_n) : x^T *m x = (fro2 x)%:M.
  Proof. by rewrite [LHS]mx11_scalar /fro2 /mxtrace big_ord1. Qed.

  Lemma ls_exact n p q (X : 'M[F]_(n, p)) (B W : 'M[F]_(p, q)) :
    gram X 0 \in unitmx -> ridge_sol X (X *m B) 0 W -> W = B.
  Proof. by move=> Gu; apply: ridge_unique Gu _; rewrite /ridge_sol gram0 mulmxA. Qed.

  Lemma ridge_bound n p q (X : 'M[F]_(n, p)) (Y : 'M[F]_(n, q)) a W :
    0 <= a -> ridge_sol X Y a W -> fro2 (Y - X *m W) <= fro2 Y.
  Proof.
    move=> a0 H.
    have tE : ip Y (X *m W) = fn2 (X *m W) + a * fn2 W.
      by rewrite ip_mull -H /gram mulmxDl ipDl mul_scalar_mx ipZl -mulmxA -ip_mull.
    have aw : 0 <= a * fn2 W by rewrite mulr_ge0 // fn2_ge0.
    rewrite !fro2_fn2 fn2B tE -addrA ger_addl mulr_natl mulr2n addrC subr_le0 -addrA ler_addl.
    by rewrite addr_ge0 // addr_ge0 // fn2_ge0.
  Qed.

  (* the residual of an orthogonal projection P = U U^T (U^T U = I); cut-off estimators fit X W = P Y *)
  Lemma proj_bound n q c (U : 'M[F]_(n, c)) (Y : 'M[F]_(n, q)) :
    U^T *m U = 1%:M -> fro2 (Y - U *m U^T *m Y) <= fro2 Y.
  Proof.
    by move=> UU; rewrite !fro2_fn2 -mulmxA fn2_proj_resid // ger_addl oppr_le0 fn2_ge0.
  Qed.

  (* squared_dist of the local measure: |a_j|^2 + |b_i|^2 - 2 b_i . a_j *)
  Definition sqdist n m p (A : 'M[F]_(n, p)) (B : 'M[F]_(m, p)) : 'M[F]_(m, n) :=
    \matrix_(i, j) (\sum_l (A j l) ^+ 2 + \sum_l (B i l) ^+ 2 - 2%:R * (B *m A^T) i j).

  Lemma sqdist_orth n m p (A : 'M[F]_(n, p)) (B : 'M[F]_(m, p)) (R : 'M[F]_p) :
    R *m R^T = 1%:M -> sqdist (A *m R) (B *m R) = sqdist A B.
  Proof.
    move=> RR; apply/matrixP => i j; rewrite [LHS]mxE [RHS]mxE trmx_mul mulmxA mulmxKt //.
    by rewrite -!rownorm_sq !rownorm_orth.
  Qed.
End Algebra.

(* the block rotation  diag(S, I)  of a zero-padded space, written with the padding matrix E (E E^T = I) *)
Section Lift.
  Variable F : rcfType.
  Variables (p r : nat) (E : 'M[F]_(p, r)).
  Hypothesis EE : E *m E^T = 1%:M.
  Definition lift (S : 'M[F]_p) : 'M[F]_r := 1%:M + E^T *m (S - 1%:M) *m E.

  Lemma E_lift S : E *m lift S = S *m E.
  Proof. by rewrite mulmxDr mulmx1 !mulmxA EE mul1mx mulmxBl mul1mx addrC subrK. Qed.

  Lemma lift_mul S T : lift S *m lift T = lift (S *m T).
  Proof.
    rewrite {1}/lift mulmxDl mul1mx -mulmxA E_lift /lift -addrA; congr (_ + _).
    rewrite -!mulmxA -mulmxDr (mulmxA _ T) -mulmxDl; congr (_ *m (_ *m _)).
    by rewrite mulmxBl mul1mx addrC addrA subrK.
  Qed.

  Lemma lift_tr S : (lift S)^T = lift S^T.
  Proof. by rewrite /lift linearD /= trmx1 !trmx_mul trmxK linearB /= trmx1 mulmxA. Qed.

  Lemma lift_orth R : R *m R^T = 1%:M -> (lift R)^T *m lift R = 1%:M.
  Proof. by move=> /mulmx1C RR; rewrite lift_tr lift_mul RR /lift subrr mulmx0 mul0mx addr0. Qed.

  (* a UNIQUE orthogonal minimiser of |X Ep O - C| turns with the source: lift R *m O' = O *)
  Lemma proc_uniq_rot_source n m (X : 'M[F]_(n, p)) (T : 'M[F]_(m, p)) (C : 'M[F]_(n, r)) (R : 'M[F]_p)
        (O O' : 'M[F]_r) :
    R *m R^T = 1%:M -> O^T *m O = 1%:M -> O'^T *m O' = 1%:M ->
    (forall O2 : 'M[F]_r, O2^T *m O2 = 1%:M ->
       fro2 (X *m R *m E *m O' - C) <= fro2 (X *m R *m E *m O2 - C)) ->
    (forall O2 : 'M[F]_r, O2^T *m O2 = 1%:M ->
       fro2 (X *m E *m O2 - C) <= fro2 (X *m E *m O - C) -> O2 = O) ->
    T *m R *m E *m O' = T *m E *m O.
  Proof.
    move=> RR OO OO' Hmin Huniq; set B := lift R.
    have BtB : B^T *m B = 1%:M := lift_orth RR.
    have BBt : B *m B^T = 1%:M := mulmx1C BtB.
    have <- : B *m O' = O.
      apply: Huniq; first exact: orthM.
      have O2o : (B^T *m O)^T *m (B^T *m O) = 1%:M.
        by rewrite trmx_mul trmxK -mulmxA (mulmxA B) BBt mul1mx.
      have := Hmin _ O2o.
      by rewrite -!(mulmxA X) -E_lift !mulmxA (mulmxKt _ BBt).
    by rewrite -(mulmxA T) -E_lift !mulmxA.
  Qed.
End Lift.

(* readers of the variable table of Model/Recon.v (slots 0..14) *)
Definition rc_Xtr (F : rcfType) (env : env_mx F) n p : 'M[F]_(n, p) := env n p 0%N.
Definition rc_Xte (F : rcfType) (env : env_mx F) m p : 'M[F]_(m, p) := env m p 1%N.
Definition rc_Ytr (F : rcfType) (env : env_mx F) n q : 'M[F]_(n, q) := env n q 2%N.
Definition rc_Yte (F : rcfType) (env : env_mx F) m q : 'M[F]_(m, q) := env m q 3%N.
Definition rc_W (F : rcfType) (env : env_mx F) p q : 'M[F]_(p, q) := env p q 4%N.
Definition rc_Om (F : rcfType) (env : env_mx F) r : 'M[F]_r := env r r 5%N.
Definition rc_Ep (F : rcfType) (env : env_mx F) p r : 'M[F]_(p, r) := env p r 6%N.
Definition rc_Eq (F : rcfType) (env : env_mx F) q r : 'M[F]_(q, r) := env q r 7%N.
Definition rc_Sel (F : rcfType) (env : env_mx F) k n : 'M[F]_(k, n) := env k n 8%N.
Definition rc_ei (F : rcfType) (env : env_mx F) m : 'rV[F]_m := env 1%N m 9%N.
Definition rc_Wi (F : rcfType) (env : env_mx F) p q : 'M[F]_(p, q) := env p q 10%N.
Definition rc_alpha (F : rcfType) (env : env_mx F) : F := env 1%N 1%N 11%N ord0 ord0.
Definition rc_U (F : rcfType) (env : env_mx F) n c : 'M[F]_(n, c) := env n c 12%N.
Definition rc_S (F : rcfType) (env : env_mx F) c : 'cV[F]_c := env c 1%N 13%N.
Definition rc_V (F : rcfType) (env : env_mx F) p c : 'M[F]_(p, c) := env p c 14%N.

Section Programs.
  Variable F : rcfType.
  Variable env : env_mx F.

  Lemma map_sqrtE m n t (A : 'M[F]_(m, n)) i j : (map_mx (sfun_mx Fsqrt t) A) i j = Num.sqrt (A i j).
  Proof. by rewrite mxE. Qed.

  Lemma rcountE n : (eval_mx env (rcount n)) ord0 ord0 = n%:R.
  Proof. exact: ones_ones. Qed.
  (* each program is sealed as soon as its value is known, so that [/=] in the later lemmas stops at it;
     MExpMx's one-step ev* lemmas would do as well *)
  Opaque rcount.

  Lemma meanE n p (X : mexp n p) : eval_mx env (mean_prog X) = cmean (eval_mx env X).
  Proof. by rewrite /mean_prog /= map_recipE rcountE. Qed.
  Opaque mean_prog.

  Lemma centerE n p a (X : mexp n p) (A : mexp a p) :
    eval_mx env (center_prog X A) = center (eval_mx env X) (eval_mx env A).
  Proof. by rewrite /center_prog /= meanE. Qed.
  Opaque center_prog.

  Lemma varsumE n p (X : mexp n p) :
    (eval_mx env (varsum_prog X)) ord0 ord0 = varsum (eval_mx env X).
  Proof.
    rewrite /varsum_prog /= mxE; apply: eq_bigr => j _.
    rewrite [in LHS]mxE [const_mx 1 j ord0]mxE mulr1 map_recipE rcountE; congr (_ * _).
    rewrite mxE; apply: eq_bigr => i _.
    by rewrite [const_mx _ _ _]mxE mul1r [LHS]mxE centerE expr2.
  Qed.
  Opaque varsum_prog.

  Lemma iscaleE n p (X : mexp n p) :
    (eval_mx env (iscale_prog X)) ord0 ord0 = iscale (eval_mx env X).
  Proof. by rewrite /iscale_prog /= map_recipE map_sqrtE varsumE. Qed.
  Opaque iscale_prog.

  Lemma stdE n p a (X : mexp n p) (A : mexp a p) :
    eval_mx env (std_prog X A) = std (eval_mx env X) (eval_mx env A).
  Proof. by rewrite /std_prog /= iscaleE centerE. Qed.
  Opaque std_prog.

  Lemma rownormE m q (R : mexp m q) : eval_mx env (rownorm_prog R) = rownorm (eval_mx env R).
  Proof.
    apply/colP => i; rewrite /rownorm_prog /= map_sqrtE !mxE; congr Num.sqrt.
    by apply: eq_bigr => j _; rewrite !mxE mulr1 expr2.
  Qed.
  Opaque rownorm_prog.

  Lemma globalE m (pw : mexp m 1) :
    (eval_mx env (global_prog pw)) ord0 ord0 = glob (eval_mx env pw).
  Proof.
    rewrite /global_prog /= mxE map_recipE !map_sqrtE rcountE; congr (_ * Num.sqrt _).
    by rewrite mxE; apply: eq_bigr => i _; rewrite mxE expr2.
  Qed.
  Opaque global_prog.
End Programs.
Global Opaque rcount mean_prog center_prog varsum_prog iscale_prog std_prog rownorm_prog global_prog.

Section Measures.
  Variable F : rcfType.
  Variables (n m p q : nat).
  Variable env : env_mx F.
  Local Notation Xtr := (rc_Xtr env n p).
  Local Notation Xte := (rc_Xte env m p).
  Local Notation Ytr := (rc_Ytr env n q).
  Local Notation Yte := (rc_Yte env m q).
  Local Notation W := (rc_W env p q).
  Local Notation alpha := (rc_alpha env).

  Definition Xs_tr : 'M[F]_(n, p) := std Xtr Xtr.
  Definition Xs_te : 'M[F]_(m, p) := std Xtr Xte.
  Definition Ys_tr : 'M[F]_(n, q) := std Ytr Ytr.
  Definition Ys_te : 'M[F]_(m, q) := std Ytr Yte.

  Lemma xs_trE : eval_mx env (xs_tr n p) = Xs_tr. Proof. by rewrite /xs_tr stdE. Qed.
  Lemma xs_teE : eval_mx env (xs_te n m p) = Xs_te. Proof. by rewrite /xs_te stdE. Qed.
  Lemma ys_trE : eval_mx env (ys_tr n q) = Ys_tr. Proof. by rewrite /ys_tr stdE. Qed.
  Lemma ys_teE : eval_mx env (ys_te n m q) = Ys_te. Proof. by rewrite /ys_te stdE. Qed.
  Opaque xs_tr xs_te ys_tr ys_te.

  Lemma greE : eval_mx env (gre_prog n m p q) = rownorm (Ys_te - Xs_te *m W).
  Proof. by rewrite /gre_prog rownormE /= ys_teE xs_teE. Qed.

  Lemma ridge_residE k (Xs : mexp k p) (Ys : mexp k q) (Wp : mexp p q) :
    eval_mx env (ridge_resid p q Xs Ys Wp)
    = gram (eval_mx env Xs) alpha *m eval_mx env Wp - (eval_mx env Xs)^T *m eval_mx env Ys.
  Proof. by rewrite /ridge_resid /gram /= mulmxDl mul_scalar_mx mulmxA. Qed.

  Lemma ridge_resid_eq0 k (Xs : mexp k p) (Ys : mexp k q) (Wp : mexp p q) :
    eval_mx env (ridge_resid p q Xs Ys Wp) = 0 <->
    ridge_sol (eval_mx env Xs) (eval_mx env Ys) alpha (eval_mx env Wp).
  Proof. by rewrite ridge_residE /ridge_sol; split=> [/subr0_eq|->]; rewrite ?subrr. Qed.

  Lemma ridge_hypE :
    eval_mx env (ridge_hyp_prog n p q) = gram Xs_tr alpha *m W - Xs_tr^T *m Ys_tr.
  Proof. by rewrite /ridge_hyp_prog ridge_residE xs_trE ys_trE. Qed.

  Lemma ridge_hyp_eq0 :
    eval_mx env (ridge_hyp_prog n p q) = 0 <-> ridge_sol Xs_tr Ys_tr alpha W.
  Proof. by rewrite /ridge_hyp_prog ridge_resid_eq0 xs_trE ys_trE. Qed.

  Section Cutoff.
    Variable c : nat.
    Local Notation U := (rc_U env n c).
    Local Notation S := (rc_S env c).
    Local Notation V := (rc_V env p c).

    Definition cutoff_contract : Prop :=
      [/\ eval_mx env (svd_resid_prog n p c) = 0, eval_mx env (uorth_resid_prog n c) = 0,
          eval_mx env (cutoff_hyp_prog n p q c) = 0 & forall i, S i ord0 != 0].

    Lemma cutoff_fit : cutoff_contract -> Xs_tr *m W = U *m U^T *m Ys_tr.
    Proof.
      rewrite /cutoff_contract /svd_resid_prog /uorth_resid_prog /cutoff_hyp_prog /cutoff_w_prog.
      rewrite /= xs_trE ys_trE; case=> /subr0_eq XV /subr0_eq UU /subr0_eq WE S0; rewrite /rc_W WE.
      rewrite /rc_U !mulmxA XV -!mulmxA; congr (_ *m _).
      rewrite mulmxA -[RHS]mul1mx; congr (_ *m _).
      apply/matrixP => i j; rewrite mul_diag_mx !mxE /=.
      case: eqP => [->|_]; last by rewrite mulr0n mulr0.
      by rewrite !mulr1n mulfV // (S0 j).
    Qed.

    Lemma cutoff_orth : cutoff_contract -> U^T *m U = 1%:M.
    Proof. by rewrite /cutoff_contract /uorth_resid_prog /=; case=> _ /subr0_eq ->. Qed.
  End Cutoff.
End Measures.
Global Opaque xs_tr xs_te ys_tr ys_te.

(* a section of its own: here Xs_tr .. Ys_te are already closed over the environment *)
Section MeasuresGrdLre.
  Variable F : rcfType.
  Variables (n m p q : nat).
  Variable env : env_mx F.
  Local Notation W := (rc_W env p q).
  Local Notation alpha := (rc_alpha env).
  Local Notation Xs_tr := (Xs_tr n p env).
  Local Notation Xs_te := (Xs_te n m p env).
  Local Notation Ys_tr := (Ys_tr n q env).
  Local Notation Ys_te := (Ys_te n m q env).

  (* GRD (repaired): both predictions zero-padded to r columns *)
  Section GRD.
    Variable r : nat.
    Local Notation Om := (rc_Om env r).
    Local Notation Ep := (rc_Ep env p r).
    Local Notation Eq := (rc_Eq env q r).

    Lemma grdE :
      eval_mx env (grd_prog n m p q r)
      = rownorm (Xs_te *m W *m Eq - Xs_te *m Ep *m Om).
    Proof. by rewrite /grd_prog rownormE /yhat_te /= xs_teE. Qed.

    Lemma proc_mE :
      eval_mx env (proc_m n p q r) = (Xs_tr *m Ep)^T *m (Xs_tr *m W *m Eq).
    Proof. by rewrite /proc_m /yhat_tr /= xs_trE. Qed.
  End GRD.

  Section LRE.
    Variable k : nat.
    Local Notation Sel := (rc_Sel env k n).
    Local Notation ei := (rc_ei env m).
    Local Notation Wi := (rc_Wi env p q).

    Definition cmean_of a b (A : 'M[F]_(a, b)) : 'rV[F]_b := cmean A.

    Lemma colmeanE a b (A : mexp a b) : eval_mx env (colmean A) = cmean (eval_mx env A).
    Proof. exact: meanE. Qed.
    Opaque colmean.

    Definition LX : 'M[F]_(k, p) := Sel *m Xs_tr.
    Definition LY : 'M[F]_(k, q) := Sel *m Ys_tr.

    Lemma loc_xcE : eval_mx env (loc_xc n p k) = center LX LX.
    Proof. by rewrite /loc_xc /loc_x /= colmeanE /= xs_trE. Qed.
    Lemma loc_ycE : eval_mx env (loc_yc n q k) = center LY LY.
    Proof. by rewrite /loc_yc /loc_y /= colmeanE /= ys_trE. Qed.

    Lemma lre_hypE :
      eval_mx env (lre_hyp_prog n p q k)
      = gram (center LX LX) alpha *m Wi - (center LX LX)^T *m center LY LY.
    Proof. by rewrite /lre_hyp_prog ridge_residE loc_xcE loc_ycE. Qed.

    Lemma lre_hyp_eq0 :
      eval_mx env (lre_hyp_prog n p q k) = 0 <-> ridge_sol (center LX LX) (center LY LY) alpha Wi.
    Proof. by rewrite /lre_hyp_prog ridge_resid_eq0 loc_xcE loc_ycE. Qed.

    Lemma lreE :
      eval_mx env (lre_prog n m p q k)
      = rownorm (ei *m Ys_te - (cmean LY + (ei *m Xs_te - cmean LX) *m Wi)).
    Proof.
      by rewrite /lre_prog rownormE /lre_pred /loc_x /loc_y /= !colmeanE /= xs_trE ys_trE xs_teE ys_teE.
    Qed.
  End LRE.

  Lemma sqdistE : eval_mx env (sqdist_prog n m p) = sqdist Xs_tr Xs_te.
  Proof.
    apply/matrixP => i j; rewrite /sqdist_prog /= xs_trE xs_teE !mxE /=; congr (_ + _ - _ * _).
    - rewrite big_ord1 !mxE mul1r; apply: eq_bigr => l _; by rewrite !mxE mulr1 expr2.
    - rewrite big_ord1 !mxE mulr1; apply: eq_bigr => l _; by rewrite !mxE mulr1 expr2.
  Qed.
End MeasuresGrdLre.
Global Opaque colmean gre_prog grd_prog lre_prog ridge_hyp_prog lre_hyp_prog sqdist_prog proc_m.

Section Relations.
  Variable F : rcfType.
  Variables (n m p q : nat).
  Implicit Types env : env_mx F.

  Local Notation XsTr env := (Xs_tr n p env).
  Local Notation XsTe env := (Xs_te n m p env).
  Local Notation YsTr env := (Ys_tr n q env).
  Local Notation YsTe env := (Ys_te n m q env).

  Definition affine_related (cx cy : F) (bx : 'rV[F]_p) (by_ : 'rV[F]_q) env env' : Prop :=
    [/\ rc_Xtr env' n p = cx *: rc_Xtr env n p + ones F n 1 *m bx,
        rc_Xte env' m p = cx *: rc_Xte env m p + ones F m 1 *m bx,
        rc_Ytr env' n q = cy *: rc_Ytr env n q + ones F n 1 *m by_
      & rc_Yte env' m q = cy *: rc_Yte env m q + ones F m 1 *m by_].

  Definition same_oracles (r k : nat) env env' : Prop :=
    [/\ rc_W env' p q = rc_W env p q, rc_alpha env' = rc_alpha env,
        rc_Om env' r = rc_Om env r /\ rc_Ep env' p r = rc_Ep env p r /\ rc_Eq env' q r = rc_Eq env q r
      & rc_Sel env' k n = rc_Sel env k n /\ rc_ei env' m = rc_ei env m /\ rc_Wi env' p q = rc_Wi env p q].

  Lemma affine_std cx cy bx by_ env env' :
    (0 < n)%N -> 0 < cx -> 0 < cy -> affine_related cx cy bx by_ env env' ->
    [/\ XsTr env' = XsTr env, XsTe env' = XsTe env, YsTr env' = YsTr env & YsTe env' = YsTe env].
  Proof.
    move=> n0 x0 y0 [E1 E2 E3 E4].
    by split; rewrite /Xs_tr /Xs_te /Ys_tr /Ys_te ?E1 ?E2 ?E3 ?E4 std_affine.
  Qed.

  (* how the standardised blocks follow a rotation / reflection of the source, resp. the target *)
  Lemma rot_source_std (R : 'M[F]_p) env env' :
    R *m R^T = 1%:M ->
    rc_Xtr env' n p = rc_Xtr env n p *m R -> rc_Xte env' m p = rc_Xte env m p *m R ->
    rc_Ytr env' n q = rc_Ytr env n q -> rc_Yte env' m q = rc_Yte env m q ->
    [/\ XsTr env' = XsTr env *m R, XsTe env' = XsTe env *m R, YsTr env' = YsTr env & YsTe env' = YsTe env].
  Proof. by move=> RR E1 E2 E3 E4; split; rewrite /Xs_tr /Xs_te /Ys_tr /Ys_te ?E1 ?E2 ?E3 ?E4 ?std_orth. Qed.

  Lemma rot_target_std (R : 'M[F]_q) env env' :
    R *m R^T = 1%:M ->
    rc_Xtr env' n p = rc_Xtr env n p -> rc_Xte env' m p = rc_Xte env m p ->
    rc_Ytr env' n q = rc_Ytr env n q *m R -> rc_Yte env' m q = rc_Yte env m q *m R ->
    [/\ XsTr env' = XsTr env, XsTe env' = XsTe env, YsTr env' = YsTr env *m R & YsTe env' = YsTe env *m R].
  Proof. by move=> RR E1 E2 E3 E4; split; rewrite /Xs_tr /Xs_te /Ys_tr /Ys_te ?E1 ?E2 ?E3 ?E4 ?std_orth. Qed.

  Lemma contained_std env (A : 'M[F]_(p, q)) :
    rc_Ytr env n q = rc_Xtr env n p *m A -> rc_Yte env m q = rc_Xte env m p *m A ->
    0 < varsum (rc_Xtr env n p) ->
    let B := (iscale (rc_Ytr env n q) / iscale (rc_Xtr env n p)) *: A in
    YsTr env = XsTr env *m B /\ YsTe env = XsTe env *m B.
  Proof.
    move=> Etr Ete vx B.
    have ix : iscale (rc_Xtr env n p) != 0 by rewrite gt_eqF // iscale_gt0.
    have C1 : center (rc_Ytr env n q) (rc_Ytr env n q)
              = center (rc_Xtr env n p) (rc_Xtr env n p) *m A by rewrite Etr center_mul.
    have C2 : center (rc_Ytr env n q) (rc_Yte env m q)
              = center (rc_Xtr env n p) (rc_Xte env m p) *m A by rewrite Etr Ete center_mul.
    rewrite /Ys_tr /Ys_te /Xs_tr /Xs_te /std C1 C2 /B.
    by split; rewrite -scalemxAr -scalemxAl scalerA divfK.
  Qed.
End Relations.

Section TrainBound.
  Variable F : rcfType.
  Variables (n p q : nat).

  Lemma train_bound_core (env : env_mx F) :
    (0 < n)%N -> rc_Xte env n p = rc_Xtr env n p -> rc_Yte env n q = rc_Ytr env n q ->
    0 < varsum (rc_Ytr env n q) ->
    fro2 (Ys_tr n q env - Xs_tr n p env *m rc_W env p q) <= fro2 (Ys_tr n q env) ->
    (eval_mx env (global_prog (gre_prog n n p q))) ord0 ord0 <= 1.
  Proof.
    move=> n0 EX EY vy Hb.
    have nR : 0 < (n%:R : F) by rewrite ltr0n.
    rewrite globalE -(@expr_le1 _ 2) ?glob_ge0 //.
    rewrite -(ler_pmul2r nR) mul1r glob_rms // greE rownorm_fro2.
    rewrite /Ys_te /Xs_te EX EY -/(Ys_tr n q env) -/(Xs_tr n p env).
    by apply: le_trans Hb _; rewrite /Ys_tr std_fro2.
  Qed.
End TrainBound.

Section Rotations.
  Variable F : rcfType.
  Variables (n m p q : nat).
  Implicit Types env : env_mx F.

  Lemma ridge_rot_source a (X : 'M[F]_(n, p)) (Y : 'M[F]_(n, q)) (R : 'M[F]_p) W W' :
    R *m R^T = 1%:M -> gram X a \in unitmx ->
    ridge_sol X Y a W -> ridge_sol (X *m R) Y a W' -> W' = R^T *m W.
  Proof.
    move=> RR Gu H H'; have RtR := mulmx1C RR.
    have H2 : ridge_sol X Y a (R *m W').
      move: H'; rewrite /ridge_sol /gram trmx_mul => H'.
      have := congr1 (mulmx R) H'.
      rewrite !mulmxA RR mul1mx mulmxDr => <-.
      congr (_ *m _); rewrite mulmxDl; congr (_ + _); first by rewrite !mulmxA RR mul1mx.
      by rewrite scalar_mxC.
    by rewrite -(ridge_unique Gu H H2) mulmxA RtR mul1mx.
  Qed.

  Lemma ridge_rot_target a (X : 'M[F]_(n, p)) (Y : 'M[F]_(n, q)) (R : 'M[F]_q) W W' :
    gram X a \in unitmx ->
    ridge_sol X Y a W -> ridge_sol X (Y *m R) a W' -> W' = W *m R.
  Proof.
    move=> Gu H H'; apply: (ridge_unique Gu _ H').
    by rewrite /ridge_sol mulmxA H mulmxA.
  Qed.
End Rotations.

(* the row norms of the ridge residual on any further block (T, Z) do not see a rotation / reflection of
   the source or of the target *)
Section Residual.
  Variable F : rcfType.
  Variables (n p q t : nat) (a : F) (X : 'M[F]_(n, p)) (Y : 'M[F]_(n, q)) (W : 'M[F]_(p, q)).
  Variables (T : 'M[F]_(t, p)) (Z : 'M[F]_(t, q)).
  Hypotheses (Gu : gram X a \in unitmx) (H : ridge_sol X Y a W).

  Lemma gre_rot_source (R : 'M[F]_p) W' :
    R *m R^T = 1%:M -> ridge_sol (X *m R) Y a W' -> rownorm (Z - T *m R *m W') = rownorm (Z - T *m W).
  Proof. by move=> RR H'; rewrite (ridge_rot_source RR Gu H H') mulmxA mulmxKt. Qed.

  Lemma gre_rot_target (R : 'M[F]_q) W' :
    R *m R^T = 1%:M -> ridge_sol X (Y *m R) a W' -> rownorm (Z *m R - T *m W') = rownorm (Z - T *m W).
  Proof. by move=> RR H'; rewrite (ridge_rot_target Gu H H') mulmxA -mulmxBl rownorm_orth. Qed.
End Residual.

(* the local measure of one point (x, y) with neighbour blocks (A, B) is that residual for the centred
   local data *)
Section LocalResidual.
  Variable F : rcfType.
  Variables (k p q : nat) (a : F) (A : 'M[F]_(k, p)) (B : 'M[F]_(k, q)) (W : 'M[F]_(p, q)).
  Variables (x : 'rV[F]_p) (y : 'rV[F]_q).
  Hypotheses (Gu : gram (center A A) a \in unitmx) (H : ridge_sol (center A A) (center B B) a W).

  Lemma lre_rot_source (R : 'M[F]_p) W' :
    R *m R^T = 1%:M -> ridge_sol (center (A *m R) (A *m R)) (center B B) a W' ->
    rownorm (y - (cmean B + (x *m R - cmean (A *m R)) *m W'))
    = rownorm (y - (cmean B + (x - cmean A) *m W)).
  Proof.
    move=> RR; rewrite center_mul cmean_mul -mulmxBl !opprD !addrA => H'.
    exact: gre_rot_source _ _ Gu H _ _ RR H'.
  Qed.

  Lemma lre_rot_target (R : 'M[F]_q) W' :
    R *m R^T = 1%:M -> ridge_sol (center A A) (center (B *m R) (B *m R)) a W' ->
    rownorm (y *m R - (cmean (B *m R) + (x - cmean A) *m W'))
    = rownorm (y - (cmean B + (x - cmean A) *m W)).
  Proof.
    move=> RR; rewrite center_mul cmean_mul !opprD !addrA -mulmxBl => H'.
    exact: gre_rot_target _ _ Gu H _ _ RR H'.
  Qed.
End LocalResidual.

Section LocalGlobal.
  Variable F : rcfType.
  Variables (n m p q : nat).
  Implicit Types env : env_mx F.

  Theorem recon_lre_is_gre env (i : 'I_m) :
    (0 < n)%N ->
    (rc_Sel env n n)^T *m rc_Sel env n n = 1%:M -> ones F 1 n *m rc_Sel env n n = ones F 1 n ->
    rc_ei env m = delta_mx ord0 i ->
    gram (Xs_tr n p env) (rc_alpha env) \in unitmx ->
    eval_mx env (ridge_hyp_prog n p q) = 0 -> eval_mx env (lre_hyp_prog n p q n) = 0 ->
    (eval_mx env (lre_prog n m p q n)) ord0 ord0 = (eval_mx env (gre_prog n m p q)) i ord0.
  Proof.
    move=> n0 SS oS Ei Gu /ridge_hyp_eq0 H /lre_hyp_eq0 Hi.
    have mX : cmean (LX n p env n) = 0.
      by rewrite /cmean /LX mulmxA oS std_colsum // scaler0.
    have mY : cmean (LY n q env n) = 0.
      by rewrite /cmean /LY mulmxA oS std_colsum // scaler0.
    have Hi2 : ridge_sol (Xs_tr n p env) (Ys_tr n q env) (rc_alpha env) (rc_Wi env p q).
      move: Hi; rewrite /center mX mY !mulmx0 !subr0 /ridge_sol /gram /LX /LY !trmx_mul.
      by rewrite -!mulmxA !(mulmxA (rc_Sel env n n)^T) SS !mul1mx.
    rewrite lreE greE mX mY add0r subr0 (ridge_unique Gu H Hi2) Ei -!rowE.
    by rewrite -row_mul -linearB /= rownorm_row.
  Qed.
End LocalGlobal.

Section Distortion.
  Variable F : rcfType.
  Variables (n m p : nat).
  Implicit Types env : env_mx F.

  Theorem recon_grd_zero env (Q : 'M[F]_p) :
    Q *m Q^T = 1%:M ->
    rc_Ytr env n p = rc_Xtr env n p *m Q -> rc_Yte env m p = rc_Xte env m p *m Q ->
    0 < varsum (rc_Xtr env n p) ->
    rc_alpha env = 0 -> eval_mx env (ridge_hyp_prog n p p) = 0 ->
    gram (Xs_tr n p env) 0 \in unitmx ->
    rc_Ep env p p = 1%:M -> rc_Eq env p p = 1%:M ->
    (forall Om' : 'M[F]_p, Om'^T *m Om' = 1%:M ->
        fro2 (Xs_tr n p env *m rc_Om env p - Xs_tr n p env *m rc_W env p p)
        <= fro2 (Xs_tr n p env *m Om' - Xs_tr n p env *m rc_W env p p)) ->
    eval_mx env (grd_prog n m p p p) = 0.
  Proof.
    move=> QQ Etr Ete vx a0 /ridge_hyp_eq0 H Gu EEp EEq Hmin.
    have [E1 E2] := contained_std Etr Ete vx.
    have ix : iscale (rc_Xtr env n p) != 0 by rewrite gt_eqF // iscale_gt0.
    have iE : iscale (rc_Ytr env n p) = iscale (rc_Xtr env n p).
      by rewrite /iscale Etr varsum_orth.
    rewrite iE (divff ix) scale1r in E1 E2.
    (* both W and, being a minimiser, Omega are the least-squares solution Q *)
    rewrite a0 E1 in H; have WQ := ls_exact Gu H.
    have := Hmin Q (mulmx1C QQ); rewrite WQ subrr !fro2_fn2 fn2_0 => le0.
    have /fn2_eq0 /subr0_eq XO : fn2 (Xs_tr n p env *m rc_Om env p - Xs_tr n p env *m Q) = 0.
      by apply/eqP; rewrite eq_le le0 fn2_ge0.
    have OQ : rc_Om env p = Q by apply: (ls_exact Gu); rewrite /ridge_sol gram0 -mulmxA XO.
    by rewrite grdE EEp EEq WQ OQ !mulmx1 subrr rownorm0.
  Qed.

  (* zero padding as a matrix:  X *m embed = np.pad(X, [(0,0),(0,r-p)]) *)
  Definition embed_mx (a r : nat) : 'M[F]_(a, r) := \matrix_(i, j) ((i : nat) == j)%:R.
End Distortion.

Section Padding.
  Variable F : rcfType.

  (* np.pad(A, [(0,0),(0,r-a)]) (truncation if r < a, never used) *)
  Definition padded k a r (A : 'M[F]_(k, a)) : 'M[F]_(k, r) :=
    \matrix_(i, j) (if insub (j : nat) is Some l then A i l else 0).

  Lemma padded_embed k a r (A : 'M[F]_(k, a)) : A *m embed_mx F a r = padded r A.
  Proof.
    apply/matrixP => i j; rewrite [RHS]mxE mxE; case: insubP => [l lt_ja lj|].
    - rewrite (bigD1 l) //= mxE lj eqxx mulr1 big1 ?addr0 // => l' ne.
      by move: ne; rewrite -val_eqE /= mxE -lj => /negbTE ->; rewrite mulr0.
    - rewrite -leqNgt => le_aj; rewrite big1 // => l _.
      by rewrite mxE ltn_eqF ?mulr0 // (leq_trans (ltn_ord l)).
  Qed.
End Padding.

Definition bmat_mx (F : rcfType) a b (B : seq (seq bool)) : 'M[F]_(a, b) :=
  \matrix_(i, j) (List.nth j (List.nth i B [::]) false)%:R.

Section Bridges.
  Variable F : rcfType.

  Lemma eqb_eqn (a b : nat) : Nat.eqb a b = (a == b).
  Proof. by apply/idP/eqP => /PeanoNat.Nat.eqb_eq. Qed.

  Lemma embed_bridge p r : bmat_mx F p r (embed_rows p r) = embed_mx F p r.
  Proof.
    apply/matrixP => i j; rewrite !mxE embed_rows_spec ?eqb_eqn //; apply/ssrnat.ltP; exact: ltn_ord.
  Qed.

  Lemma sel_bridge n (idx : seq nat) (s : 'S_n) :
    size idx = n -> (forall t : 'I_n, List.nth t idx 0%N = s t) ->
    bmat_mx F n n (sel_rows n idx) = perm_mx s.
  Proof.
    move=> sz Hs; apply/matrixP => t j; rewrite !mxE sel_rows_spec ?Hs ?eqb_eqn //.
    - by apply/ssrnat.ltP; rewrite [length idx]sz; exact: ltn_ord.
    - by apply/ssrnat.ltP; exact: ltn_ord.
  Qed.

  Lemma perm_sel n (s : 'S_n) :
    (perm_mx s : 'M[F]_n)^T *m perm_mx s = 1%:M /\ ones F 1 n *m perm_mx s = ones F 1 n.
  Proof.
    split; first by rewrite tr_perm_mx -perm_mxM mulVg perm_mx1.
    apply/rowP => j; rewrite ones_mulmx mxE (bigD1 (s^-1 j)%g) //= big1 ?addr0.
    - by rewrite !mxE permKV eqxx.
    - move=> i ne; rewrite !mxE; case: eqP => // sij; case/negP: ne.
      by rewrite -sij permK.
  Qed.
End Bridges.

Section NonVacuity.
  Variable F : rcfType.

  (* two samples, one feature on each side: X = Y = [[0],[2]], train = test, W = [[1]], alpha = 0 *)
  Definition tiny_recon_env : env_mx F :=
    fun a b x => \matrix_(i, j) (if (x < 4)%N then (if (i : nat) == 0%N then 0 else 2%:R)
                                 else if x == 4%N then 1 else 0).

  Lemma tiny_recon_ok :
    let env := tiny_recon_env in
    [/\ rc_Ytr env 2 1 = rc_Xtr env 2 1 *m 1%:M, rc_Yte env 2 1 = rc_Xte env 2 1 *m 1%:M,
        rc_Xte env 2 1 = rc_Xtr env 2 1 /\ rc_Yte env 2 1 = rc_Ytr env 2 1,
        0 < varsum (rc_Xtr env 2 1) /\ 0 < varsum (rc_Ytr env 2 1)
      & [/\ rc_alpha env = 0, eval_mx env (ridge_hyp_prog 2 1 1) = 0
          & gram (Xs_tr 2 1 env) 0 \in unitmx]].
  Proof.
    move=> env.
    have XY : rc_Ytr env 2 1 = rc_Xtr env 2 1 by apply/matrixP => i j; rewrite !mxE.
    have XX : rc_Xte env 2 1 = rc_Xtr env 2 1 by apply/matrixP => i j; rewrite !mxE.
    have YY : rc_Yte env 2 1 = rc_Ytr env 2 1 by apply/matrixP => i j; rewrite !mxE.
    have W1 : rc_W env 1 1 = 1%:M.
      by apply/matrixP => i j; rewrite !mxE /= !ord1 eqxx.
    have a0 : rc_alpha env = 0 by rewrite /rc_alpha mxE.
    have two : (2%:R : F) != 0 by rewrite pnatr_eq0.
    have vx : 0 < varsum (rc_Xtr env 2 1).
      have cm : cmean (rc_Xtr env 2 1) = 1%:M.
        apply/rowP => j; rewrite !mxE !big_ord_recl big_ord0 !mxE /= !ord1 /=.
        by rewrite mulr0 add0r addr0 mul1r mulVf.
      rewrite /varsum big_ord1 !big_ord_recl big_ord0 /center cm !mxE /=.
      rewrite !big_ord1 !mxE /= !mul1r !mulr1n sub0r sqrrN expr1n addr0.
      apply: mulr_gt0; first by rewrite invr_gt0 ltr0n.
      by apply: ltr_paddr ltr01; apply: sqr_ge0.
    have Ys : Ys_tr 2 1 env = Xs_tr 2 1 env by rewrite /Ys_tr XY.
    split=> //; first by rewrite XY mulmx1.
      by rewrite YY XY XX mulmx1.
    split=> //.
    - by apply/ridge_hyp_eq0; rewrite /ridge_sol Ys W1 a0 gram0 mulmx1.
    - by rewrite gram0 gram_col /Xs_tr std_fro2 // unitmxE det_scalar1 unitfE.
  Qed.
End NonVacuity.
