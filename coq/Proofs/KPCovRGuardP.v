(* C05 — proofs about the rejection branches of KernelPCovR.fit (Model/KPCovRGuard.v).  Stdlib style. *)
From Coq Require Import ZArith Bool Lia.
From Verif Require Import KPCovRGuard.
Open Scope Z_scope.

(* the regressor argument passes checks 1-3 *)
Definition regressor_ok (g : gin) : Prop :=
  match g_reg g with
  | GNone | GPre => True
  | GOther => False
  | GKrr m f =>
      m = true /\
      match f with
      | None => True
      | Some (d0, nd, cols) => d0 = g_d g /\ nd = g_yndim g /\ (g_yndim g = 2 -> cols = g_p g)
      end
  end.

Definition ncomp_ok (g : gin) : Prop := 0 <= ncomp g <= g_n g.

Lemma guard_ncomp_spec g :
  (guard_ncomp g = Accept <-> ncomp_ok g) /\ (guard_ncomp g = RejNComponents <-> ~ ncomp_ok g).
Proof.
  unfold guard_ncomp, ncomp_ok.
  destruct (Z.leb_spec 0 (ncomp g)), (Z.leb_spec (ncomp g) (g_n g)); cbn;
    repeat split; (discriminate || lia || reflexivity).
Qed.

(* the regressor checks come first: either they all pass and the verdict is that of the
   n_components check, or the first failing one names the verdict *)
Lemma fit_guard_regressor g :
  (regressor_ok g /\ fit_guard g = guard_ncomp g) \/
  (~ regressor_ok g /\ fit_guard g <> Accept /\ fit_guard g <> RejNComponents).
Proof.
  unfold fit_guard, regressor_ok, guard_krr.
  destruct (g_reg g) as [| | |[] [[[d0 nd] cols]|]];
    try (left; tauto); try (right; intuition discriminate).
  destruct (Z.eqb_spec d0 (g_d g)); [|right; intuition discriminate].
  destruct (Z.eqb_spec nd (g_yndim g)); [|right; intuition discriminate].
  destruct (Z.eqb_spec (g_yndim g) 2), (Z.eqb_spec cols (g_p g)); cbn;
    try (left; tauto); right; intuition discriminate.
Qed.

(* fit goes through iff the regressor argument is acceptable and 0 <= n_components_ <= n_samples *)
Theorem fit_accepts_iff g : fit_guard g = Accept <-> regressor_ok g /\ ncomp_ok g.
Proof.
  rewrite <- (proj1 (guard_ncomp_spec g)). destruct (fit_guard_regressor g) as [[H ->]|(H & H1 & _)]; tauto.
Qed.

(* the n_components error is only ever reported for an acceptable regressor argument *)
Theorem ncomp_rejection_iff g : fit_guard g = RejNComponents <-> regressor_ok g /\ ~ ncomp_ok g.
Proof.
  rewrite <- (proj2 (guard_ncomp_spec g)). destruct (fit_guard_regressor g) as [[H ->]|(H & _ & H1)]; tauto.
Qed.

(* a non-KernelRidge object is refused whatever the rest of the call looks like, and a
   kernel-argument mismatch is reported before anything about the data is looked at *)
Theorem regressor_checks_first g :
  (g_reg g = GOther -> fit_guard g = RejRegressorType) /\
  (forall f, g_reg g = GKrr false f -> fit_guard g = RejKernelMismatch).
Proof. unfold fit_guard; split; [intros -> | intros f ->]; reflexivity. Qed.

(* n_components=None never trips the n_components check; the number of components is then n *)
Theorem default_ncomp g : g_k g = None -> 0 <= g_n g -> ncomp g = g_n g /\ ncomp_ok g.
Proof. unfold ncomp_ok, ncomp; intros ->; lia. Qed.

(* satisfiable / not trivial: an accepted and a rejected call *)
Definition guard_examples_stmt : Prop :=
  fit_guard (mk_gin (GKrr true (Some (3, 2, 2))) 6 3 2 2 (Some 2)) = Accept /\
  fit_guard (mk_gin (GKrr true (Some (3, 1, 6))) 6 3 2 2 (Some 2)) = RejDualNdim /\
  fit_guard (mk_gin GNone 6 3 2 2 (Some 7)) = RejNComponents /\
  fit_guard (mk_gin GNone 6 3 2 2 (Some 0)) = Accept /\
  fit_guard (mk_gin GNone 6 3 2 2 None) = Accept.
Example guard_examples : guard_examples_stmt.
Proof. repeat split. Qed.

(* small problems (max(n_samples, n_features) <= 500, the bound INCLUDED) always get the full SVD *)
Theorem auto_small_is_full n d k : Z.max n d <= 500 -> resolve_solver SAuto n d k = SFull.
Proof.
  intros H. unfold resolve_solver.
  destruct (Z.max n d <=? 500) eqn:E; [reflexivity | apply Z.leb_gt in E; lia].
Qed.

(* above 500: randomized iff 1 <= k < 0.8 * max(n, d), otherwise full; never anything else *)
Theorem auto_large_spec n d k :
  500 < Z.max n d ->
  (resolve_solver SAuto n d k = SRandomized <-> 1 <= k /\ 5 * k < 4 * Z.max n d) /\
  (resolve_solver SAuto n d k = SFull <-> ~ (1 <= k /\ 5 * k < 4 * Z.max n d)).
Proof.
  intros H. unfold resolve_solver.
  destruct (Z.max n d <=? 500) eqn:E; [apply Z.leb_le in E; lia |].
  destruct (1 <=? k) eqn:E1; destruct (5 * k <? 4 * Z.max n d) eqn:E2; cbn [andb];
    try apply Z.leb_le in E1; try apply Z.leb_gt in E1;
    try apply Z.ltb_lt in E2; try apply Z.ltb_ge in E2;
    (split; split; intro Hx); try discriminate; try reflexivity; try lia; try (exfalso; apply Hx; lia).
Qed.

(* an explicit svd_solver is kept, and the resolved solver is never "auto" *)
Theorem explicit_solver_kept s n d k :
  (s <> SAuto -> resolve_solver s n d k = s) /\ resolve_solver s n d k <> SAuto.
Proof.
  split.
  - destruct s; intros H; try reflexivity; contradiction.
  - destruct s; try (cbn [resolve_solver]; discriminate).
    unfold resolve_solver.
    destruct (Z.max n d <=? 500); [discriminate |].
    destruct ((1 <=? k) && (5 * k <? 4 * Z.max n d)); discriminate.
Qed.

Definition solver_examples_stmt : Prop :=
  resolve_solver SAuto 499 3 4 = SFull /\ resolve_solver SAuto 500 3 4 = SFull /\
  resolve_solver SAuto 501 3 4 = SRandomized /\ resolve_solver SAuto 5 501 3 = SRandomized /\
  resolve_solver SAuto 501 3 401 = SFull /\ resolve_solver SArpack 6 3 2 = SArpack.
Example solver_examples : solver_examples_stmt.
Proof. repeat split. Qed.
