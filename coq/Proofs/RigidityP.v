(* Algebra of the prediction rigidities (ssreflect/mathcomp style).
   Part 1: quadratic forms of a regularised Gram matrix and of an oracle inverse, over an
           arbitrary real closed field.
   Part 2: what the mexp programs of Model/Rigidity.v and the denominator programs of
           Model/RigidityExt.v evaluate to ([eval_mx]): every output entry is the reciprocal of
           [den N env z] for one of three rows z.
   Part 3: what the oracle hypothesis gives for one row z; Properties/C20.v instantiates it at
           the three rows. *)
From mathcomp Require Import all_ssreflect all_algebra.
From Verif Require Import MExp MExpMx MxFrobP Rigidity RigidityExt RigidityListP.
Set Implicit Arguments.
Unset Strict Implicit.
Unset Printing Implicit Defensive.
Import Order.Theory GRing.Theory Num.Theory.
Close Scope float_scope.
Local Open Scope ring_scope.

Section QuadraticForms.
  Variable F : rcfType.

  (* w w^T  (= MxFrobP.fn2 w, by fn2_rowE) *)
  Definition nrm2 n (w : 'rV[F]_n) : F := (w *m w^T) ord0 ord0.

  Lemma nrm2E n (w : 'rV[F]_n) : nrm2 w = \sum_k (w ord0 k) ^+ 2.
  Proof. by rewrite /nrm2 mxE; apply: eq_bigr => k _; rewrite mxE expr2. Qed.

  Lemma nrm2_ge0 n (w : 'rV[F]_n) : 0 <= nrm2 w.
  Proof. exact: row_sq_ge0. Qed.

  Lemma nrm2_gt0 n (w : 'rV[F]_n) : w != 0 -> 0 < nrm2 w.
  Proof. exact: row_sq_gt0. Qed.

  Lemma nrm2Z n (s : F) (w : 'rV[F]_n) : nrm2 (s *: w) = s * s * nrm2 w.
  Proof. by rewrite /nrm2 linearZ /= -scalemxAl -scalemxAr !mxE mulrA. Qed.

  Variable d : nat.
  Implicit Types (x y z : 'rV[F]_d) (A B P Q : 'M[F]_d).

  (* x A x^T *)
  Definition qf A x : F := (x *m A *m x^T) ord0 ord0.

  Lemma qfD A B x : qf (A + B) x = qf A x + qf B x.
  Proof. by rewrite /qf mulmxDr mulmxDl mxE. Qed.

  Lemma qfB A B x : qf (A - B) x = qf A x - qf B x.
  Proof. by rewrite /qf mulmxBr mulmxBl !mxE. Qed.

  Lemma qf_scalar a x : qf a%:M x = a * nrm2 x.
  Proof. by rewrite /qf /nrm2 mul_mx_scalar -scalemxAl mxE. Qed.

  Lemma qfZl a A x : qf (a *: A) x = a * qf A x.
  Proof. by rewrite /qf -scalemxAr -scalemxAl mxE. Qed.

  Lemma qf_gram k (Z : 'M[F]_(k, d)) x : qf (Z^T *m Z) x = nrm2 (x *m Z^T).
  Proof. by rewrite /qf /nrm2 trmx_mul trmxK !mulmxA. Qed.

  Lemma qfZ P s z : qf P (s *: z) = s * s * qf P z.
  Proof. by rewrite /qf linearZ /= -!scalemxAl -scalemxAr !mxE mulrA. Qed.

  Lemma qf0 P : qf P 0 = 0.
  Proof. by rewrite /qf !mul0mx mxE. Qed.

  (* the regularised covariance  Z^T Z + a I  (the same matrix as ReconP.gram Z a) *)
  Definition reg k (Z : 'M[F]_(k, d)) (a : F) : 'M[F]_d := Z^T *m Z + a%:M.

  Lemma reg_sym k (Z : 'M[F]_(k, d)) a : (reg Z a)^T = reg Z a.
  Proof. by rewrite /reg linearD /= trmx_mul trmxK tr_scalar_mx. Qed.

  Lemma qf_reg k (Z : 'M[F]_(k, d)) a x : qf (reg Z a) x = nrm2 (x *m Z^T) + a * nrm2 x.
  Proof. by rewrite /reg qfD qf_gram qf_scalar. Qed.

  Lemma reg_pos k (Z : 'M[F]_(k, d)) a x : 0 < a -> x != 0 -> 0 < qf (reg Z a) x.
  Proof.
    move=> a0 x0; rewrite qf_reg; apply: ltr_paddl (nrm2_ge0 _) _.
    by apply: mulr_gt0 a0 (nrm2_gt0 x0).
  Qed.

  Lemma reg_ge0 k (Z : 'M[F]_(k, d)) a x : 0 <= a -> 0 <= qf (reg Z a) x.
  Proof.
    by move=> a0; rewrite qf_reg; apply: addr_ge0 (nrm2_ge0 _) (mulr_ge0 a0 (nrm2_ge0 _)).
  Qed.

  Lemma regZ k (Z : 'M[F]_(k, d)) a s : s * s = 1 -> reg (s *: Z) a = reg Z a.
  Proof.
    by move=> ss; rewrite /reg -scalemxAr linearZ /= -scalemxAl scalerA ss scale1r.
  Qed.

  (* an oracle inverse P of a symmetric matrix A:  A P = I *)
  Section Inverse.
    Variables (A P : 'M[F]_d).
    Hypothesis Asym : A^T = A.
    Hypothesis AP : A *m P = 1%:M.

    Lemma inv_PA : P *m A = 1%:M.
    Proof. exact: mulmx1C AP. Qed.

    Lemma inv_sym : P^T = P.
    Proof.
      have H : P^T *m A = 1%:M by rewrite -{1}Asym -trmx_mul AP trmx1.
      by rewrite -[LHS]mulmx1 -AP mulmxA H mul1mx.
    Qed.

    Lemma inv_is_invmx : P = invmx A.
    Proof.
      have Au : A \in unitmx by case/mulmx1_unit: AP.
      by rewrite -[LHS]mul1mx -(mulVmx Au) -mulmxA AP mulmx1.
    Qed.

    Lemma inv_unique Q : A *m Q = 1%:M -> Q = P.
    Proof. by move=> AQ; rewrite -[LHS]mul1mx -inv_PA -mulmxA AQ mulmx1. Qed.

    (* x P x^T = y A y^T with y = x P *)
    Lemma qf_inv x : qf P x = qf A (x *m P).
    Proof.
      rewrite /qf trmx_mul inv_sym -!mulmxA (mulmxA A) AP mul1mx.
      by rewrite !mulmxA.
    Qed.

    Lemma inv_back x : x *m P *m A = x.
    Proof. by rewrite -mulmxA inv_PA mulmx1. Qed.
  End Inverse.

  Section RegInverse.
    Variables (k : nat) (Z : 'M[F]_(k, d)) (a : F) (P : 'M[F]_d).
    Hypothesis a0 : 0 < a.
    Hypothesis AP : reg Z a *m P = 1%:M.

    Lemma reginv_pos x : x != 0 -> 0 < qf P x.
    Proof.
      move=> x0; rewrite (qf_inv (reg_sym Z a) AP); apply: reg_pos => //.
      apply: contra x0 => /eqP y0.
      by rewrite -(inv_back AP x) y0 mul0mx.
    Qed.

    Lemma reginv_ge0 x : 0 <= qf P x.
    Proof.
      by rewrite (qf_inv (reg_sym Z a) AP); apply: reg_ge0; apply: ltW.
    Qed.

    Lemma reginv_eq0 x : (qf P x == 0) = (x == 0).
    Proof.
      apply/eqP/eqP => [q0|->]; last exact: qf0.
      by apply/eqP; apply: contraT => /reginv_pos; rewrite q0 ltxx.
    Qed.
  End RegInverse.

  (* monotonicity in the regulariser:  a <= b  =>  x (A+b)^-1 x^T <= x (A+a)^-1 x^T *)
  Section Monotone.
    Variables (k : nat) (Z : 'M[F]_(k, d)) (a b : F) (P Q : 'M[F]_d).
    Hypothesis a0 : 0 < a.
    Hypothesis ab : a <= b.
    Hypothesis AP : reg Z a *m P = 1%:M.
    Hypothesis BQ : reg Z b *m Q = 1%:M.

    Lemma reg_shift : reg Z b = reg Z a + (b - a)%:M.
    Proof. by rewrite /reg -addrA -raddfD /= (addrC a) subrK. Qed.

    Lemma qf_diff x :
      qf P x - qf Q x = (b - a) * (nrm2 (x *m Q) + (b - a) * qf P (x *m Q)).
    Proof.
      (* with c = b - a and w = x Q:  P - Q = c P Q  and  x P = w + c w P *)
      set c := b - a; set w := x *m Q.
      have Qs := inv_sym (reg_sym Z b) BQ.
      have PA := inv_PA AP.
      have PQ : P - Q = P *m c%:M *m Q.
        have -> : c%:M = reg Z b - reg Z a by rewrite reg_shift addrC addKr.
        by rewrite mulmxBr mulmxBl -mulmxA BQ mulmx1 PA mul1mx.
      have xQt : Q *m x^T = w^T by rewrite /w trmx_mul Qs.
      have xP : x *m P = w + c *: (w *m P).
        rewrite -{1}(inv_back BQ x) -/w reg_shift mulmxDr mulmxDl -mulmxA AP mulmx1.
        by rewrite mul_mx_scalar -scalemxAl.
      rewrite -qfB PQ /qf !mulmxA -(mulmxA _ Q) xQt xP mul_mx_scalar -scalemxAl mxE.
      rewrite mulmxDl mxE -scalemxAl mxE; congr (c * (_ + _)); first by rewrite /nrm2 mxE.
      by rewrite mxE.
    Qed.

    Lemma qf_mono x : qf Q x <= qf P x.
    Proof.
      have c0 : 0 <= b - a by rewrite subr_ge0.
      rewrite -subr_ge0 qf_diff; apply: (mulr_ge0 c0).
      apply: addr_ge0 (nrm2_ge0 _) _; apply: (mulr_ge0 c0).
      exact: reginv_ge0 a0 AP _.
    Qed.
  End Monotone.
End QuadraticForms.

(* Part 2: specification-level counterparts of the programs *)
Section Spec.
  Variable F : rcfType.
  Variable d : nat.

  (* np.mean(X**2, axis=0).sum() *)
  Definition sf2 N (X : 'M[F]_(N, d)) : F := \sum_j (N%:R^-1 * \sum_i (X i j) ^+ 2).
  Definition isf N (X : 'M[F]_(N, d)) : F := (Num.sqrt (sf2 X))^-1.

  (* averaging matrix of a 0/1 membership matrix: row s is M[s,:] / sum(M[s,:]) *)
  Definition avg k n (M : 'M[F]_(k, n)) : 'M[F]_(k, n) :=
    \matrix_(s, a) ((\sum_b M s b)^-1 * M s a).

  Definition maskrow (mk z : 'rV[F]_d) : 'rV[F]_d := \row_j (z ord0 j * mk ord0 j).

  Lemma maskrowZ mk s z : maskrow mk (s *: z) = s *: maskrow mk z.
  Proof. by apply/rowP => j; rewrite !mxE mulrA. Qed.

  Lemma maskrow_ones z : maskrow (const_mx 1) z = z.
  Proof. by apply/rowP => j; rewrite !mxE mulr1. Qed.

  Lemma sf2Z N c (X : 'M[F]_(N, d)) : sf2 (c *: X) = c ^+ 2 * sf2 X.
  Proof.
    rewrite /sf2 mulr_sumr; apply: eq_bigr => j _.
    rewrite mulrCA; congr (_ * _); rewrite mulr_sumr; apply: eq_bigr => i _.
    by rewrite mxE exprMn.
  Qed.

  Lemma sf2_ge0 N (X : 'M[F]_(N, d)) : 0 <= sf2 X.
  Proof.
    apply: sumr_ge0 => j _; apply: mulr_ge0; first by rewrite invr_ge0 ler0n.
    by apply: sumr_ge0 => i _; apply: sqr_ge0.
  Qed.

  Lemma isfZ N c (X : 'M[F]_(N, d)) : isf (c *: X) = `|c|^-1 * isf X.
  Proof.
    by rewrite /isf sf2Z sqrtrM ?sqr_ge0 // sqrtr_sqr invfM.
  Qed.
End Spec.

(* accessors for the variable table of Model/Rigidity.v (Section Progs) *)
Definition e_Xtr (F : rcfType) (env : env_mx F) N d : 'M[F]_(N, d) := env N d 0%N.
Definition e_Mtr (F : rcfType) (env : env_mx F) S N : 'M[F]_(S, N) := env S N 1%N.
Definition e_Xte (F : rcfType) (env : env_mx F) Nt d : 'M[F]_(Nt, d) := env Nt d 2%N.
Definition e_Mte (F : rcfType) (env : env_mx F) St Nt : 'M[F]_(St, Nt) := env St Nt 3%N.
Definition e_alpha (F : rcfType) (env : env_mx F) : F := env 1%N 1%N 4%N ord0 ord0.
Definition e_Xinv (F : rcfType) (env : env_mx F) d : 'M[F]_d := env d d 5%N.
Definition e_mask (F : rcfType) (env : env_mx F) d : 'rV[F]_d := env 1%N d 6%N.

(* the denominator of a rigidity at the (unscaled) row z:  x Xinv x^T  with  x = z / sfactor *)
Definition den (F : rcfType) d N (env : env_mx F) (z : 'rV[F]_d) : F :=
  qf (e_Xinv env d) (isf (e_Xtr env N d) *: z).

Section Programs.
  Variable F : rcfType.
  Variables (d N S Nt St : nat).
  Variable env : env_mx F.
  Let Xtr := e_Xtr env N d.
  Let Mtr := e_Mtr env S N.
  Let Xte := e_Xte env Nt d.
  Let Mte := e_Mte env St Nt.
  Let alpha := e_alpha env.
  Let Xinv := e_Xinv env d.
  Let mask := e_mask env d.

  Lemma cnt1E n : (eval_mx env (cnt1 n)) ord0 ord0 = n%:R.
  Proof. exact: ones_ones. Qed.

  Lemma sf2E : (eval_mx env (sf2_prog d N)) ord0 ord0 = sf2 Xtr.
  Proof.
    rewrite /sf2_prog /= mulmx_ones; apply: eq_bigr => j _.
    rewrite mxE map_recipE; have /= -> := cnt1E N; rewrite ones_mulmx.
    by congr (_ * _); apply: eq_bigr => i _; rewrite mxE expr2.
  Qed.

  Lemma isfE : (eval_mx env (isf_prog d N)) ord0 ord0 = isf Xtr.
  Proof. by rewrite /isf_prog /= map_recipE mxE sf2E. Qed.

  (* a program whose value is known stays folded: later [/=] steps stop at it *)
  Opaque isf_prog.

  Lemma meansE k n (M : mexp k n) (X : mexp n d) :
    eval_mx env (means_prog d N M X) = isf Xtr *: (avg (eval_mx env M) *m eval_mx env X).
  Proof.
    rewrite /means_prog /= isfE -2!scalemxAr mulmxA; congr (_ *: (_ *m _)).
    apply/matrixP => s a; rewrite mul_diag_mx !mxE /=; congr (_^-1 * _).
    by apply: eq_bigr => j _; rewrite mxE mulr1.
  Qed.

  (* the per-structure averaged, globally scaled training features *)
  Definition Xstruc : 'M[F]_(S, d) := isf Xtr *: (avg Mtr *m Xtr).

  Lemma xstrucE : eval_mx env (xstruc_prog d N S) = Xstruc.
  Proof. by rewrite /xstruc_prog meansE. Qed.

  Opaque means_prog xstruc_prog.

  Lemma xprimeE : eval_mx env (xprime_prog d N S) = reg Xstruc alpha.
  Proof. by rewrite /xprime_prog /= xstrucE scalemx1. Qed.

  Opaque xprime_prog.

  Lemma hyp_eq0 :
    eval_mx env (hyp_prog d N S) = 0 <-> reg Xstruc alpha *m Xinv = 1%:M.
  Proof.
    rewrite /hyp_prog /= xprimeE.
    by split=> [/subr0_eq|->]; rewrite ?subrr.
  Qed.

  Lemma quadE k (Z : mexp k d) i :
    (eval_mx env (quad_prog d Z)) i ord0 = qf Xinv (row i (eval_mx env Z)).
  Proof.
    rewrite /quad_prog /qf /= mulmx_ones -row_mul mxE; apply: eq_bigr => j _.
    by rewrite !mxE.
  Qed.

  Lemma maskedE k (Z : mexp k d) i :
    row i (eval_mx env (masked d Z)) = maskrow mask (row i (eval_mx env Z)).
  Proof.
    apply/rowP => j; rewrite /masked /= !mxE; congr (_ * _).
    by rewrite big_ord1 !mxE mul1r.
  Qed.

  Lemma xtestE : eval_mx env (xtest_prog d N Nt) = isf Xtr *: Xte.
  Proof. by rewrite /xtest_prog /= isfE. Qed.

  Opaque quad_prog masked xtest_prog.

  Definition x_env (i : 'I_Nt) : 'rV[F]_d := isf Xtr *: row i Xte.
  Definition x_struc (s : 'I_St) : 'rV[F]_d := isf Xtr *: row s (avg Mte *m Xte).

  Lemma lpr_denE i : (eval_mx env (lpr_den_prog d N Nt)) i ord0 = den N env (row i Xte).
  Proof. by rewrite /lpr_den_prog quadE xtestE linearZ. Qed.

  Lemma lcpr_denE i :
    (eval_mx env (lcpr_den_prog d N Nt)) i ord0 = den N env (maskrow mask (row i Xte)).
  Proof. by rewrite /lcpr_den_prog quadE maskedE xtestE linearZ /= maskrowZ. Qed.

  Lemma cpr_denE s :
    (eval_mx env (cpr_den_prog d N Nt St)) s ord0
    = den N env (maskrow mask (row s (avg Mte *m Xte))).
  Proof. by rewrite /cpr_den_prog quadE maskedE meansE linearZ /= maskrowZ. Qed.

  Lemma lprE i : (eval_mx env (lpr_prog d N Nt)) i ord0 = (den N env (row i Xte))^-1.
  Proof. by rewrite -lpr_denE mxE. Qed.

  Lemma lcprE i :
    (eval_mx env (lcpr_prog d N Nt)) i ord0 = (den N env (maskrow mask (row i Xte)))^-1.
  Proof. by rewrite -lcpr_denE mxE. Qed.

  Lemma cprE s :
    (eval_mx env (cpr_prog d N Nt St)) s ord0
    = (den N env (maskrow mask (row s (avg Mte *m Xte))))^-1.
  Proof. by rewrite -cpr_denE mxE. Qed.
End Programs.
Global Opaque lpr_prog lcpr_prog cpr_prog hyp_prog lpr_den_prog lcpr_den_prog cpr_den_prog.

(* Part 3: one row under the oracle hypothesis *)
(* the oracle hypothesis on an environment:  (XX + alpha I) * Xinv = I *)
Definition rig_hyp (F : rcfType) (env : env_mx F) (d N S : nat) : Prop :=
  eval_mx env (hyp_prog d N S) = 0.

(* lists of booleans (component masks, membership rows) as matrices over F *)
Definition bvec_mx (F : rcfType) d (l : seq bool) : 'rV[F]_d := \row_j (nth false l j)%:R.
Definition bmat_mx (F : rcfType) m n (B : seq (seq bool)) : 'M[F]_(m, n) :=
  \matrix_(i, j) (nth false (nth [::] B i) j)%:R.

Lemma ord_ltP n (i : 'I_n) : (i < n)%coq_nat.
Proof. exact/ssrnat.ltP/ltn_ord. Qed.

(* ssreflect's nth and the standard library's List.nth (used by Model/Rigidity.v) agree *)
Lemma nth_ListE T (x0 : T) (s : seq T) n : nth x0 s n = List.nth n s x0.
Proof. by elim: s n => [|a s IH] [|n] //=. Qed.

Section Theorems.
  Variable F : rcfType.
  Variables (d N S Nt St : nat).
  Implicit Types (env : env_mx F) (z : 'rV[F]_d).

  Local Notation A env := (reg (Xstruc d N S env) (e_alpha env)).
  Local Notation lpr env := (eval_mx env (lpr_prog d N Nt)).
  Local Notation lcpr env := (eval_mx env (lcpr_prog d N Nt)).
  Local Notation cpr env := (eval_mx env (cpr_prog d N Nt St)).

  Lemma hypAP env : rig_hyp env d N S -> A env *m e_Xinv env d = 1%:M.
  Proof. by move/hyp_eq0. Qed.

  Lemma isf_gt0 env : 0 < sf2 (e_Xtr env N d) -> 0 < isf (e_Xtr env N d).
  Proof. by move=> s0; rewrite /isf invr_gt0 sqrtr_gt0. Qed.

  Section OneRow.
    Variable env : env_mx F.
    Hypothesis a0 : 0 < e_alpha env.
    Hypothesis H : rig_hyp env d N S.
    Hypothesis s0 : 0 < sf2 (e_Xtr env N d).

    Lemma den_eq0 z : (den N env z == 0) = (z == 0).
    Proof. by rewrite /den (reginv_eq0 a0 (hypAP H)) scaler_eq0 gt_eqF ?isf_gt0. Qed.

    Lemma den_gt0 z : z != 0 -> 0 < den N env z.
    Proof. by move=> z0; rewrite lt_def den_eq0 z0; apply: reginv_ge0 a0 (hypAP H) _. Qed.
  End OneRow.

  Definition rescaled (c : F) env env' : Prop :=
    [/\ e_Xtr env' N d = c *: e_Xtr env N d, e_Xte env' Nt d = c *: e_Xte env Nt d,
        e_Mtr env' S N = e_Mtr env S N, e_Mte env' St Nt = e_Mte env St Nt
      & e_alpha env' = e_alpha env /\ e_mask env' d = e_mask env d].

  (* the scale factor absorbs |c|; the sign that is left squares to 1 and leaves both the
     regularised covariance (hence its inverse) and every quadratic form unchanged *)
  Lemma den_rescaled (c : F) env env' z :
    c != 0 -> rescaled c env env' -> rig_hyp env d N S -> rig_hyp env' d N S ->
    den N env' (c *: z) = den N env z.
  Proof.
    move=> c0 [Etr _ EMtr _ [Ea _]] /hypAP AP /hypAP AP'.
    have sgsg : Num.sg c * Num.sg c = 1 by rewrite -expr2 sqr_sg c0.
    have isfc : isf (c *: e_Xtr env N d) * c = Num.sg c * isf (e_Xtr env N d).
      rewrite isfZ mulrAC; congr (_ * _).
      by rewrite {2}[c]numEsg mulrCA mulVf ?mulr1 // normr_eq0.
    have XsE : Xstruc d N S env' = Num.sg c *: Xstruc d N S env.
      by rewrite /Xstruc Etr EMtr -scalemxAr !scalerA isfc.
    have PE : e_Xinv env' d = e_Xinv env d.
      by apply: (inv_unique AP); rewrite -[X in X *m _](regZ _ _ sgsg) -XsE -Ea.
    by rewrite /den PE Etr !scalerA isfc -scalerA qfZ sgsg mul1r.
  Qed.

  Theorem rig_scale_invariant (c : F) env env' :
    c != 0 -> rescaled c env env' -> rig_hyp env d N S -> rig_hyp env' d N S ->
    [/\ lpr env' = lpr env, lcpr env' = lcpr env & cpr env' = cpr env].
  Proof.
    move=> c0 R H H'; have dE := den_rescaled _ c0 R H H'.
    case: R => _ Ete _ EMte [_ Em]; split; apply/colP => i.
    - by rewrite [LHS]lprE [RHS]lprE Ete linearZ /= dE.
    - by rewrite [LHS]lcprE [RHS]lcprE Ete Em linearZ /= maskrowZ dE.
    - by rewrite [LHS]cprE [RHS]cprE Ete EMte Em -scalemxAr linearZ /= maskrowZ dE.
  Qed.

  Definition same_data env env' : Prop :=
    [/\ e_Xtr env' N d = e_Xtr env N d, e_Xte env' Nt d = e_Xte env Nt d,
        e_Mtr env' S N = e_Mtr env S N, e_Mte env' St Nt = e_Mte env St Nt
      & e_mask env' d = e_mask env d].

  Lemma rig_monotone_row env env' z :
    same_data env env' -> 0 < e_alpha env -> e_alpha env <= e_alpha env' ->
    rig_hyp env d N S -> rig_hyp env' d N S -> 0 < sf2 (e_Xtr env N d) -> z != 0 ->
    (den N env z)^-1 <= (den N env' z)^-1.
  Proof.
    move=> [Etr _ EMtr _ _] a0 ab H H' s0 z0.
    have b0 : 0 < e_alpha env' by apply: lt_le_trans a0 ab.
    have s0' : 0 < sf2 (e_Xtr env' N d) by rewrite Etr.
    rewrite lef_pinv ?posrE ?den_gt0 // /den Etr.
    have AP' := hypAP H'; rewrite /Xstruc Etr EMtr in AP'.
    exact: qf_mono a0 ab (hypAP H) AP' _.
  Qed.

  Theorem rig_monotone_alpha env env' :
    same_data env env' -> 0 < e_alpha env -> e_alpha env <= e_alpha env' ->
    rig_hyp env d N S -> rig_hyp env' d N S -> 0 < sf2 (e_Xtr env N d) ->
    [/\ forall i, row i (e_Xte env Nt d) != 0 -> lpr env i ord0 <= lpr env' i ord0,
        forall i, maskrow (e_mask env d) (row i (e_Xte env Nt d)) != 0 ->
                  lcpr env i ord0 <= lcpr env' i ord0
      & forall s, maskrow (e_mask env d) (row s (avg (e_Mte env St Nt) *m e_Xte env Nt d)) != 0 ->
                  cpr env s ord0 <= cpr env' s ord0].
  Proof.
    move=> SD a0 ab H H' s0; have key z := rig_monotone_row SD a0 ab H H' s0 (z := z).
    case: SD => _ Ete _ EMte Em; split=> i z0.
    - by rewrite [X in X <= _]lprE [X in _ <= X]lprE Ete; apply: key.
    - by rewrite [X in X <= _]lcprE [X in _ <= X]lcprE Ete Em; apply: key.
    - by rewrite [X in X <= _]cprE [X in _ <= X]cprE Ete EMte Em; apply: key.
  Qed.

  Lemma bvec_single : bvec_mx F d (comp_mask [:: d] 0) = const_mx 1.
  Proof.
    by apply/rowP => j; rewrite !mxE nth_ListE comp_mask_single //; exact: ord_ltP.
  Qed.
End Theorems.

Section Membership.
  Variable F : rcfType.

  Lemma sum_nth_ntrue n (r : seq bool) :
    size r = n -> \sum_(a < n) (nth false r a)%:R = (ntrue r)%:R :> F.
  Proof.
    move=> <-; rewrite -(big_mkord xpredT (fun a => (nth false r a)%:R)).
    rewrite -(big_nth false xpredT (fun b : bool => b%:R)).
    elim: r => [|b r IH]; first by rewrite big_nil.
    have -> : ntrue (b :: r) = (b + ntrue r)%N by case: b.
    by rewrite big_cons IH natrD.
  Qed.

  Variable lens : seq nat.
  Local Notation S := (size lens).
  Local Notation N := (lsum lens).

  (* the 0/1 membership matrix handed to the programs, over F *)
  Definition member_mx : 'M[F]_(S, N) := bmat_mx F S N (member_rows lens).
  (* environment a belongs to structure s *)
  Definition mem_of (s : 'I_S) (a : 'I_N) : bool :=
    List.nth a (List.nth s (member_rows lens) [::]) false.

  Lemma member_mxE s a : member_mx s a = (mem_of s a)%:R.
  Proof. by rewrite mxE !nth_ListE. Qed.

  Lemma member_rowsum (s : 'I_S) : \sum_a member_mx s a = (List.nth s lens 0%N)%:R.
  Proof.
    rewrite (eq_bigr (fun a : 'I_N => (nth false (nth [::] (member_rows lens) s) a)%:R));
      last by move=> a _; rewrite mxE.
    rewrite sum_nth_ntrue nth_ListE ?member_rows_count //; try exact: ord_ltP.
    by apply: member_row_length; exact: ord_ltP.
  Qed.

  (* row s of (avg member_mx * X) is the mean of the rows of X that belong to structure s *)
  Theorem rig_struct_means d (X : 'M[F]_(N, d)) (s : 'I_S) (f : 'I_d) :
    (avg member_mx *m X) s f
    = (\sum_(a | mem_of s a) X a f) / (List.nth s lens 0%N)%:R.
  Proof.
    rewrite mxE [RHS]mulrC mulr_sumr [RHS]big_mkcond /=; apply: eq_bigr => a _.
    rewrite mxE member_rowsum member_mxE.
    by case: (mem_of s a); rewrite ?mulr1 ?mulr0 ?mul0r.
  Qed.

  Lemma avg_single d (X : 'M[F]_(N, d)) (s : 'I_S) (a : 'I_N) :
    List.nth s lens 0%N = 1%N -> (a : nat) = lsum (List.firstn s lens) ->
    row s (avg member_mx *m X) = row a X.
  Proof.
    move=> l1 aE; apply/rowP => f; rewrite [LHS]mxE [RHS]mxE rig_struct_means l1 divr1.
    rewrite (big_pred1 a) // => b; rewrite /mem_of member_rows_single //; try exact: ord_ltP.
    by rewrite -aE.
  Qed.
End Membership.

Section OneByOne.
  Variable F : rcfType.
  Variable env : env_mx F.
  Hypothesis X1 : e_Xtr env 1 1 = const_mx 1.
  Hypothesis M1 : e_Mtr env 1 1 = const_mx 1.
  Hypothesis a1 : e_alpha env = 1.

  Lemma one_sf2 : sf2 (e_Xtr env 1 1) = 1.
  Proof. by rewrite /sf2 !big_ord1 X1 mxE invr1 mul1r expr1n. Qed.

  Lemma one_isf : isf (e_Xtr env 1 1) = 1.
  Proof. by rewrite /isf one_sf2 sqrtr1 invr1. Qed.

  Lemma one_reg : reg (Xstruc 1 1 1 env) (e_alpha env) = 2%:R%:M.
  Proof.
    have c1 : const_mx 1 = 1%:M :> 'M[F]_1 by apply/matrixP => i j; rewrite !mxE !ord1.
    have av : avg (e_Mtr env 1 1) = 1%:M.
      by rewrite M1 -c1; apply/matrixP => i j; rewrite !mxE big_ord1 mxE invr1 mul1r.
    rewrite /reg /Xstruc one_isf scale1r av mul1mx X1 c1 trmx1 mulmx1 a1.
    by rewrite -raddfD /= -(natrD _ 1 1).
  Qed.
End OneByOne.

Section NonVacuity.
  Variable F : rcfType.

  (* a concrete environment (one feature, one structure, one environment, alpha = 1):
     X_train = [[1]], sfactor = 1, XX + alpha = 2, Xinv = 1/2, LPR = 2 *)
  Definition tiny_env : env_mx F :=
    fun m n x => const_mx (if x == 5%N then 2%:R^-1 else 1).

  Lemma tiny_env_ok :
    [/\ rig_hyp tiny_env 1 1 1, 0 < e_alpha tiny_env, 0 < sf2 (e_Xtr tiny_env 1 1),
        row ord0 (e_Xte tiny_env 1 1) != 0
      & (eval_mx tiny_env (lpr_prog 1 1 1)) ord0 ord0 = 2%:R].
  Proof.
    have a1 : e_alpha tiny_env = 1 by rewrite /e_alpha mxE.
    have X1 : e_Xtr tiny_env 1 1 = const_mx 1 by [].
    have P2 : e_Xinv tiny_env 1 = (2%:R^-1)%:M.
      by apply/matrixP => i j; rewrite !mxE /= !ord1 mulr1n.
    split.
    - by apply/hyp_eq0; rewrite (one_reg X1) // P2 -scalar_mxM divff // pnatr_eq0.
    - by rewrite a1 ltr01.
    - by rewrite (one_sf2 X1) ltr01.
    - by apply/eqP => /rowP /(_ ord0) /eqP; rewrite !mxE oner_eq0.
    - rewrite lprE /den (one_isf X1) scale1r P2 /qf mul_mx_scalar -scalemxAl mxE.
      by rewrite mxE big_ord1 !mxE mulr1 mulr1 invrK.
  Qed.
End NonVacuity.
