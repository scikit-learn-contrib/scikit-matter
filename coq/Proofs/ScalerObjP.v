(* C11 — invariants of the scaler object (Model/ScalerObjMx.v) over
   arbitrary sequences of set_params / fit / transform / inverse_transform calls. *)
From mathcomp Require Import all_ssreflect all_algebra.
From Verif Require Import MxBox MxBoxP Scaler ScalerMx ScalerP ScalerObjMx.
Set Implicit Arguments.
Unset Strict Implicit.
Unset Printing Implicit Defensive.
Import Order.Theory GRing.Theory Num.Theory.
Local Open Scope ring_scope.

Section ObjP.
  Variable F : rcfType.
  Variable a0 : F.
  Hypothesis a0_pos : 0 < a0.
  Notation so_par := (so_par F).
  Notation so_obj := (so_obj F).
  Notation so_op := (so_op F).

  (* whatever fit stores — accepted or rejected by the guard — is safe to divide by *)
  Lemma so_fit_good (p : so_par) n d (X : 'M[F]_(n, d)) hw (w : 'cV[F]_n) f out :
    par_ok a0 p -> hw ==> (wsum w != 0) ->
    so_fit p X hw w = (Some f, out) -> fit_good a0 f.
  Proof.
    case/andP => aa r0 wok; rewrite /so_fit.
    have at0 : 0 < p_atol p by apply: lt_le_trans aa.
    case E: (sc_fit_mx _ _ _ _ _) => [st|]; last first.
      case: (n < 2)%N => // -[<- _] j /=; rewrite mxE; split; [exact: ltr01 | by left].
    case=> <- _ j /=.
    have ok : sc_wok (so_cfg p hw) w by [].
    have [n1 S0 g e1 e2] := fit_some ok E.
    split; first by rewrite e2; apply: (scale_of_pos at0 r0 g).
    case ws: (p_ws p); last by left; rewrite e2 /scale_of /= ws mxE.
    right; have := sc_scale_bounded ok E ws (ltW at0) r0.
    case: (column_wise _) => /(_ j) [_ H]; apply: le_trans H; apply: le_trans aa _.
      by rewrite ler_addl mulr_ge0.
    by rewrite ler_addr mulr_ge0.
  Qed.

  Lemma so_step_good (o : so_obj) (op : so_op) :
    obj_good a0 o -> op_ok a0 op -> obj_good a0 (so_step o op).1.
  Proof.
    case=> pk fk; case: op => [p|n d X hw w|k c Y|k c T] /= okop.
    - by split.
    - case E: (so_fit _ _ _ _) => [[f|] out] //=; split=> // f' [<-].
      exact: (so_fit_good pk okop E).
    - by case: (o_fit o) => [f|] //=; case: (c == f_d f).
    - by case: (o_fit o) => [f|] //=; case: (c == f_d f).
  Qed.

  Lemma so_run_good (ops : seq so_op) (o : so_obj) :
    obj_good a0 o -> all (op_ok a0) ops -> obj_good a0 (so_run o ops).1.
  Proof.
    elim: ops o => [|op ops IH] o //= og /andP [ok1 okr].
    have := so_step_good og ok1; case: (so_step o op) => o1 out /= og1.
    by have := IH o1 og1 okr; case: (so_run o1 ops).
  Qed.

  Lemma so_reachable_scale (p0 : so_par) (ops : seq so_op) f :
    par_ok a0 p0 -> all (op_ok a0) ops ->
    o_fit (so_run (SoObj p0 None) ops).1 = Some f -> fit_good a0 f.
  Proof.
    move=> pk okr; have og : obj_good a0 (SoObj p0 None) by split.
    by case: (so_run_good og okr) => _; apply.
  Qed.

  Lemma so_roundtrip (o : so_obj) f k (Y : 'M[F]_(k, f_d f)) :
    o_fit o = Some f -> fit_good a0 f ->
    let T := sc_transform_mx (f_st f) Y in
    [/\ so_step o (OpTransform Y) = (o, OutMat (box T)),
        so_step o (OpInverse T) = (o, OutMat (box Y))
      & so_step o (OpTransform (sc_inverse_mx (f_st f) Y)) = (o, OutMat (box Y))].
  Proof.
    move=> E fg /=; rewrite E eqxx !unbox_box.
    have s0 j : (f_st f).2 ord0 j != 0 by apply: lt0r_neq0; case: (fg j).
    by rewrite sc_inverseK_nz // sc_transformK_nz.
  Qed.

End ObjP.

Lemma so_nonvacuous (F : rcfType) :
  let p : so_par F := SoPar true true true 0 (2%:R^-1) in
  let X : 'M[F]_(2, 1) := \matrix_(i, j) (i : nat)%:R *+ 2 in
  let C : 'M[F]_(2, 1) := const_mx 1 in
  let Y2 : 'M[F]_(1, 2) := 0 in
  let ops := [:: OpFit X false 0; OpFit C false 0; OpTransform Y2; OpTransform C] in
  par_ok (2%:R^-1) p /\ all (op_ok (2%:R^-1)) ops
  /\ exists f B, [/\ (so_run (SoObj p None) [:: OpFit X false 0]).2 = [:: OutSelf F],
                    o_fit (so_run (SoObj p None) ops).1 = Some f,
                    (so_run (SoObj p None) ops).2
                    = [:: OutSelf F; OutValueError F; OutValueError F; OutMat B]
                  & f_arr f = false].
Proof.
  move=> p X C Y2 ops; split; first by rewrite /par_ok /= !lexx.
  split=> //.
  have [_ e] := sc_nonvacuous F.
  have eC : sc_fit_mx (so_cfg p false) 0 (2%:R^-1) C 0 = None.
    have ok : sc_wok (so_cfg p false) (0 : 'cV[F]_2) by [].
    have H : [exists j, (wvar (sc_effw (so_cfg p false) 0) C) ord0 j
                        < 2%:R^-1 + `|(wmean (sc_effw (so_cfg p false) 0) C) ord0 j| * 0].
      apply/existsP; exists ord0.
      suff -> : (wvar (sc_effw (so_cfg p false) 0) C) ord0 ord0 = 0.
        by rewrite mulr0 addr0 invr_gt0 ltr0n.
      rewrite wvarE /sc_effw /= !wmean_ones !mxE big1 ?mul0r // => i _.
      rewrite !mxE (eq_bigr (fun=> 1)) => [|l _]; last by rewrite mxE.
      by rewrite sumr_const card_ord divff ?subrr ?expr0n // pnatr_eq0.
    have := sc_fit_accepted 0 (2%:R^-1) C ok; rewrite /= H /=.
    by case: (sc_fit_mx _ _ _ _ _).
  rewrite /ops /= /so_fit /= e /= eC /=.
  by eexists; eexists; split; reflexivity.
Qed.
