(* The evaluation-friendly Gabriel graph / Gabriel fit equal the model's (Model/QSFast.v). *)
From Verif Require Import ListXP QuickShiftP QSFast.
Local Close Scope Z_scope.
Local Open Scope nat_scope.

Lemma existsb_map {A B} (f : B -> bool) (g : A -> B) l :
  existsb f (map g l) = existsb (fun x => f (g x)) l.
Proof. induction l as [|a l IH]; [reflexivity|]. cbn. rewrite IH. reflexivity. Qed.

Lemma existsb2_nth {A B} (f : A -> B -> bool) (da : A) (db : B) : forall r1 r2 n,
  length r1 = n -> length r2 = n ->
  existsb (fun k => f (nth k r1 da) (nth k r2 db)) (seq 0 n) = existsb2 f r1 r2.
Proof.
  induction r1 as [|a r1 IH]; intros [|b r2] n H1 H2; cbn in H1, H2; subst n; try discriminate; [reflexivity|].
  cbn [seq existsb existsb2 nth]. f_equal.
  rewrite <- seq_shift, existsb_map. cbn [nth]. apply IH; [reflexivity|]. now injection H2.
Qed.

Lemma gab_cond_fast_eq n D i j : sq_mat n D -> i < n -> j < n ->
  gab_cond_fast D i j = gab_cond D n i j.
Proof.
  intros HD Hi Hj. unfold gab_cond_fast, gab_cond, dget. symmetry.
  apply (existsb2_nth (fun a b => ext_lt (ext_add a b) (nth j (nth i D []) None)) None None);
    apply (sq_mat_row n D); assumption.
Qed.

Lemma gab_inner_fast_eq n D i G : sq_mat n D -> i < n -> gab_inner_fast D n i G = gab_inner D n i G.
Proof.
  intros HD Hi. unfold gab_inner_fast, gab_inner. apply fold_left_ext_in.
  intros G' j Hj. apply in_seq in Hj. rewrite (gab_cond_fast_eq n D i j HD Hi) by lia. reflexivity.
Qed.

Theorem gabriel_fast_eq n D : sq_mat n D -> gabriel_fast D = gabriel D.
Proof.
  intros HD. unfold gabriel_fast, gabriel. rewrite (proj1 HD). apply fold_left_ext_in.
  intros G i Hi. apply in_seq in Hi. apply gab_inner_fast_eq; [exact HD|lia].
Qed.

Theorem fit_gab_fast_eq n D w shell : sq_mat n D -> fit_gab_fast D w shell = fit_gab D w shell.
Proof.
  intros HD. unfold fit_gab_fast. cbv zeta. rewrite (gabriel_fast_eq n D HD). reflexivity.
Qed.
