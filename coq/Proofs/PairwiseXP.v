(* About Model/PairwiseX.v: the flat array layout computes the nested maps; the squared flag; when the fold is
   the identity; the pair laws on the returned matrices; Mahalanobis under periodic images.  lra/nra over Q. *)
From Coq Require Import Lqa.
From Verif Require Import PairwiseP PairwiseX.
Open Scope Q_scope.

Lemma map_flat_map {A B C} (f : B -> C) (g : A -> list B) l :
  map f (flat_map g l) = flat_map (fun x => map f (g x)) l.
Proof. induction l as [|a l IH]; [reflexivity|]. cbn [flat_map]. rewrite map_app, IH. reflexivity. Qed.

Lemma chunks_flat_map {A B} (g : A -> list B) ny l :
  (forall x, length (g x) = ny) -> chunks (length l) ny (flat_map g l) = map g l.
Proof.
  intros Hg. induction l as [|a l IH]; [reflexivity|].
  cbn [length flat_map chunks map].
  assert (F : firstn ny (g a ++ flat_map g l) = g a).
  { rewrite <- (Hg a). rewrite firstn_app, Nat.sub_diag, firstn_all. cbn [firstn]. apply app_nil_r. }
  assert (S : skipn ny (g a ++ flat_map g l) = flat_map g l).
  { rewrite <- (Hg a). rewrite skipn_app, Nat.sub_diag, skipn_all. reflexivity. }
  rewrite F, S, IH. reflexivity.
Qed.

Definition frow (cell : option (list Q)) (v : list Q) : list Q :=
  match cell with None => v | Some c => map2 wrap c v end.

Lemma fold_rows_map cell l : fold_rows cell l = map (frow cell) l.
Proof. destruct cell as [c|]; [reflexivity|]. cbn. symmetry. apply map_id. Qed.

Lemma frow_vdiff cell x y : frow cell (vdiff x y) = dvec cell x y.
Proof. destruct cell; reflexivity. Qed.

Lemma flat_layout (h : list Q -> Q) X Y cell :
  chunks (length X) (length Y) (map h (fold_rows cell (diffs X Y)))
  = map (fun x => map (fun y => h (dvec cell x y)) Y) X.
Proof.
  rewrite fold_rows_map. unfold diffs. rewrite !map_flat_map.
  rewrite chunks_flat_map by (intros x; rewrite !map_length; reflexivity).
  apply map_ext. intros x. rewrite !map_map. apply map_ext. intros y.
  rewrite frow_vdiff. reflexivity.
Qed.

Lemma pp_flat_eq X Y cell : pp_flat X Y cell = map (fun x => map (fun y => dist2 cell x y) Y) X.
Proof. unfold pp_flat. apply (flat_layout qsqn). Qed.

Lemma mh_flat_eq P X Y cell : mh_flat P X Y cell = map (fun x => map (fun y => mahal2 P cell x y) Y) X.
Proof. unfold mh_flat. apply (flat_layout (qform P)). Qed.

Lemma periodic_pairwise_flat_eq X Y cell : periodic_pairwise_flat X Y cell = periodic_pairwise X Y cell.
Proof.
  unfold periodic_pairwise_flat, periodic_pairwise.
  destruct (check_dimension X cell); [|reflexivity].
  destruct (check_pairwise X Y) as [Y'|]; [|reflexivity]. rewrite pp_flat_eq. reflexivity.
Qed.

Lemma pairwise_mahal_flat_eq X Y cov cell : pairwise_mahal_flat X Y cov cell = pairwise_mahal_opt X Y cov cell.
Proof.
  unfold pairwise_mahal_flat, pairwise_mahal_opt.
  destruct (check_dimension X cell); [|reflexivity].
  destruct (check_pairwise X Y) as [Y'|]; [|reflexivity].
  destruct (forallb _ _); [|reflexivity]. f_equal. apply map_ext. intros P. apply mh_flat_eq.
Qed.

Lemma pairwise_mahal_opt_some X Y cov cell : pairwise_mahal_opt X (Some Y) cov cell = pairwise_mahal X Y cov cell.
Proof. reflexivity. Qed.

Lemma pairwise_mahal_opt_none X cov cell : pairwise_mahal_opt X None cov cell = pairwise_mahal X X cov cell.
Proof. reflexivity. Qed.

Lemma periodic_pairwise_none X cell : periodic_pairwise X None cell = periodic_pairwise X (Some X) cell.
Proof. reflexivity. Qed.

Lemma mahal_flat_full X Y cov cell :
  pairwise_mahal_flat X Y cov cell
  = pairwise_mahal X (match Y with None => X | Some Y' => Y' end) cov cell.
Proof. rewrite pairwise_mahal_flat_eq. destruct Y; reflexivity. Qed.

Lemma mahal_gram_nonneg r L cell x y :
  rows_len r L -> length (dvec cell x y) = length L -> 0 <= mahal2 (gram L) cell x y.
Proof. intros HL Hv. unfold mahal2. apply (qform_gram_nonneg r); assumption. Qed.

Lemma Forall2_imp {A B} (R S : A -> B -> Prop) l m :
  (forall a b, R a b -> S a b) -> Forall2 R l m -> Forall2 S l m.
Proof. intros H. induction 1; constructor; auto. Qed.

Lemma Forall2_map_r {A B C} (R : A -> C -> Prop) (f : B -> C) l m :
  Forall2 (fun a b => R a (f b)) l m -> Forall2 R l (map f m).
Proof. induction 1; constructor; auto. Qed.

Lemma Forall2_common {A B C} (R : A -> B -> Prop) (S : A -> C -> Prop) l m n :
  Forall2 R l m -> Forall2 S l n -> Forall2 (fun b c => exists a, R a b /\ S a c) m n.
Proof.
  intros H. revert n. induction H; intros n Hn; inversion Hn; subst; constructor; eauto.
Qed.

Lemma pp_squared_flag X Y cell R :
  pp_returns false X Y cell R -> pp_returns true X Y cell (map (map qsq) R).
Proof.
  intros [M [E H]]. exists M. split; [exact E|].
  apply Forall2_map_r. revert H. apply Forall2_imp. intros m r Hr.
  apply Forall2_map_r. revert Hr. apply Forall2_imp. intros s t [_ Hst]. exact Hst.
Qed.

Lemma pp_flag_unique X Y cell R R2 :
  pp_returns false X Y cell R -> pp_returns true X Y cell R2 ->
  mat_rel (fun r r2 => 0 <= r /\ r2 == r * r) R R2.
Proof.
  intros [M [E H]] [M2 [E2 H2]]. rewrite E in E2. injection E2 as <-.
  apply (Forall2_imp _ _ _ _) with (2 := Forall2_common _ _ _ _ _ H H2). intros r r2 [m [Hr Hr2]].
  apply (Forall2_imp _ _ _ _) with (2 := Forall2_common _ _ _ _ _ Hr Hr2). intros t t2 [s [[Hn Hst] Hst2]].
  split; [exact Hn|]. cbn in Hst2. rewrite Hst2, Hst. reflexivity.
Qed.

(* triangle inequality with square roots replaced by arbitrary rational upper bounds of them *)
Lemma pd2_triangle_bounds cell x y z rb rc : cell_pos cell ->
  length x = length cell -> length y = length cell -> length z = length cell ->
  0 <= rb -> 0 <= rc -> pd2 cell x y <= rb * rb -> pd2 cell y z <= rc * rc ->
  pd2 cell x z <= (rb + rc) * (rb + rc).
Proof.
  intros Hc Hx Hy Hz. destruct (pd2_tri_core cell x y z Hc Hx Hy Hz) as [s [CS H]].
  apply (tri_bound _ _ _ s); auto using pd2_nonneg.
Qed.

Lemma pd2_triangle_roots cell x y z ra rb rc : cell_pos cell ->
  length x = length cell -> length y = length cell -> length z = length cell ->
  is_root ra (pd2 cell x z) -> is_root rb (pd2 cell x y) -> is_root rc (pd2 cell y z) ->
  ra <= rb + rc.
Proof.
  intros Hc Hx Hy Hz [Ha Ea] [Hb Eb] [Hcc Ec]. apply sq_le; [lra|]. rewrite Ea.
  apply (pd2_triangle_bounds cell x y z rb rc); try assumption; lra.
Qed.

Lemma wrap_id_iff c t : 0 < c -> (wrap c t == t <-> - c <= 2 * t <= c).
Proof.
  intros Hc. split.
  - intros E. pose proof (wrap_bound c t Hc) as H. lra.
  - intros H.
    assert (Et : t == (t / c) * c) by (field; lra).
    assert (R : 0%Z = rhe (t / c)).
    { apply rhe_unique.
      - unfold near. change (inject_Z 0) with 0. set (q := t / c) in *. split; nra.
      - intros _. reflexivity. }
    unfold wrap. rewrite <- R. change (inject_Z 0) with 0. ring.
Qed.

Lemma qsq_eq_abs w t c : qsq w == qsq t -> - c <= 2 * w <= c -> - c <= 2 * t <= c.
Proof.
  unfold qsq. intros E H.
  assert (Z : (t - w) * (t + w) == 0) by (ring_simplify; ring_simplify in E; lra).
  apply Qmult_integral in Z. destruct Z as [Z|Z]; lra.
Qed.

Lemma pd2_eq_free_iff cell x y : cell_pos cell ->
  length x = length cell -> length y = length cell ->
  (pd2 cell x y == fd2 x y <-> within_half cell x y).
Proof.
  apply (cell_ind (fun cell x y => pd2 cell x y == fd2 x y <-> within_half cell x y)).
  - split; [intros _; constructor|reflexivity].
  - intros c a b cell' x' y' Hc Hc' Lx Ly IH.
    pose proof (pd2_le_free cell' x' y' Hc' Lx Ly) as F. pose proof (wrap_sq_le_free c (a - b) Hc) as W.
    rewrite pd2_cons, fd2_cons.
    unfold within_half. change (vdiff (a :: x') (b :: y')) with ((a - b) :: vdiff x' y').
    split.
    + intros E. constructor.
      * apply (qsq_eq_abs (wrap c (a - b))); [lra|apply wrap_bound; exact Hc].
      * apply IH. lra.
    + intros H. inversion H as [|c2 t2 l2 v2 H1 H2]; subst.
      apply (wrap_id_iff c (a - b) Hc) in H1. apply IH in H2. rewrite H1, H2. reflexivity.
Qed.

Lemma rect_In d X x : rect d X = true -> In x X -> length x = d.
Proof. unfold rect. rewrite forallb_forall. intros H Hin. apply Nat.eqb_eq, H, Hin. Qed.

Lemma pp_some_inv X Y cell M : periodic_pairwise X (Some Y) cell = Some M ->
  check_dimension X cell = true /\ rect (width X) X = true /\ rect (width X) Y = true.
Proof. intros E. destruct (periodic_pairwise_some X Y cell M E) as [D [RX [RY _]]]. auto. Qed.

Lemma fd2_sym x y : fd2 x y == fd2 y x.
Proof.
  revert y. induction x as [|a x IH]; intros [|b y]; try reflexivity.
  rewrite !fd2_cons, IH. unfold qsq. ring.
Qed.

Lemma dist2_sym cell x y : dist2 cell x y == dist2 cell y x.
Proof. destruct cell as [c|]; [apply pd2_sym|apply fd2_sym]. Qed.

Lemma pp_matrix_symmetric X Y cell M M' :
  periodic_pairwise X (Some Y) cell = Some M -> periodic_pairwise Y (Some X) cell = Some M' ->
  forall i j, (i < length X)%nat -> (j < length Y)%nat ->
    nth i (nth j M' []) 0 == nth j (nth i M []) 0.
Proof.
  intros E E' i j Hi Hj.
  destruct (periodic_pairwise_entry X Y cell M E) as [_ H].
  destruct (periodic_pairwise_entry Y X cell M' E') as [_ H'].
  rewrite (H i j Hi Hj), (H' j i Hj Hi). apply dist2_sym.
Qed.

Definition ocell_pos (cell : option (list Q)) : Prop :=
  match cell with None => True | Some c => cell_pos c end.

Lemma fd2_self x : fd2 x x == 0.
Proof. induction x as [|a x IH]; [reflexivity|]. rewrite fd2_cons, IH. unfold qsq. ring. Qed.

Lemma dist2_self cell x : ocell_pos cell -> dist2 cell x x == 0.
Proof. destruct cell as [c|]; intros H; [apply pd2_self; exact H|apply fd2_self]. Qed.

Lemma pp_matrix_self X cell M : ocell_pos cell ->
  periodic_pairwise X None cell = Some M ->
  (forall i, (i < length X)%nat -> nth i (nth i M []) 0 == 0) /\
  (forall i j, (i < length X)%nat -> (j < length X)%nat -> nth j (nth i M []) 0 == nth i (nth j M []) 0).
Proof.
  intros Hc E. rewrite periodic_pairwise_none in E.
  destruct (periodic_pairwise_entry X X cell M E) as [_ H]. split.
  - intros i Hi. rewrite (H i i Hi Hi). apply dist2_self. exact Hc.
  - intros i j Hi Hj. rewrite (H i j Hi Hj), (H j i Hj Hi). apply dist2_sym.
Qed.

Lemma nth_map2 {A B C} (f : A -> B -> C) l m i da db dc :
  (i < length l)%nat -> (i < length m)%nat ->
  nth i (map2 f l m) dc = f (nth i l da) (nth i m db).
Proof.
  revert m i. induction l as [|a l IH]; intros [|b m] i Hl Hm; cbn in *; try lia.
  destruct i as [|i]; [reflexivity|]. apply IH; lia.
Qed.

Lemma pp_some_widths X Y cell M : periodic_pairwise X (Some Y) cell = Some M ->
  (forall i, (i < length X)%nat -> length (nth i X []) = width X) /\
  (forall j, (j < length Y)%nat -> length (nth j Y []) = width X).
Proof.
  intros E. destruct (pp_some_inv X Y cell M E) as [_ [RX RY]].
  split; intros i Hi; [apply (rect_In _ X)|apply (rect_In _ Y)]; auto using nth_In.
Qed.

Lemma pp_some_lengths X Y c M : periodic_pairwise X (Some Y) (Some c) = Some M ->
  (forall i, (i < length X)%nat -> length (nth i X []) = length c) /\
  (forall j, (j < length Y)%nat -> length (nth j Y []) = length c).
Proof.
  intros E. destruct (pp_some_inv X Y (Some c) M E) as [D _].
  apply Nat.eqb_eq in D. cbn in D. rewrite <- D. exact (pp_some_widths X Y (Some c) M E).
Qed.

Lemma mshift_length cell ms X : length ms = length X -> length (mshift cell ms X) = length X.
Proof. intros L. unfold mshift. rewrite map2_length, L. apply Nat.min_id. Qed.

Lemma mshift_nth cell ms X i : length ms = length X -> (i < length X)%nat ->
  nth i (mshift cell ms X) [] = vshift cell (nth i ms []) (nth i X []).
Proof. intros L Hi. apply nth_map2; rewrite ?L; exact Hi. Qed.

Lemma pp_matrix_image cell ms ms' X Y M M' : cell_pos cell ->
  length ms = length X -> length ms' = length Y ->
  Forall (fun m => length m = length cell) ms -> Forall (fun m => length m = length cell) ms' ->
  periodic_pairwise X (Some Y) (Some cell) = Some M ->
  periodic_pairwise (mshift cell ms X) (Some (mshift cell ms' Y)) (Some cell) = Some M' ->
  forall i j, (i < length X)%nat -> (j < length Y)%nat ->
    nth j (nth i M' []) 0 == nth j (nth i M []) 0.
Proof.
  intros Hc Lm Lm' Fm Fm' E E' i j Hi Hj. rewrite Forall_forall in Fm, Fm'.
  destruct (periodic_pairwise_entry _ _ _ _ E) as [_ H]. destruct (periodic_pairwise_entry _ _ _ _ E') as [_ H'].
  destruct (pp_some_lengths X Y cell M E) as [LX LY].
  rewrite (H i j Hi Hj), H' by (rewrite mshift_length; assumption).
  rewrite !mshift_nth by assumption.
  apply pd2_image; auto; [apply Fm|apply Fm']; apply nth_In; congruence.
Qed.

Lemma pp_matrix_bounds X Y cell M : cell_pos cell ->
  periodic_pairwise X (Some Y) (Some cell) = Some M ->
  forall i j, (i < length X)%nat -> (j < length Y)%nat ->
    0 <= nth j (nth i M []) 0 /\ 4 * nth j (nth i M []) 0 <= qsqn cell /\
    nth j (nth i M []) 0 <= fd2 (nth i X []) (nth j Y []).
Proof.
  intros Hc E i j Hi Hj. destruct (periodic_pairwise_entry _ _ _ _ E) as [_ H].
  destruct (pp_some_lengths X Y cell M E) as [LX LY]. rewrite (H i j Hi Hj).
  split; [apply pd2_nonneg|]. split; [now apply pd2_half_diagonal|]. apply pd2_le_free; auto.
Qed.

Lemma fd2_expand x y : length x = length y ->
  fd2 x y == qdot x x - 2 * qdot x y + qdot y y.
Proof.
  revert y. induction x as [|a x IH]; intros [|b y] H; try discriminate.
  - reflexivity.
  - rewrite fd2_cons, !qdot_cons, IH by (now injection H). unfold qsq. ring.
Qed.

Lemma pp_no_cell X Y M : periodic_pairwise X (Some Y) None = Some M ->
  forall i j, (i < length X)%nat -> (j < length Y)%nat ->
    let x := nth i X [] in let y := nth j Y [] in
    nth j (nth i M []) 0 = fd2 x y /\ fd2 x y == qdot x x - 2 * qdot x y + qdot y y.
Proof.
  intros E i j Hi Hj x y. destruct (periodic_pairwise_entry _ _ _ _ E) as [_ H].
  destruct (pp_some_widths X Y None M E) as [WX WY].
  split; [apply (H i j Hi Hj)|]. apply fd2_expand. unfold x, y. now rewrite WX, WY.
Qed.

(* off exact half-cell ties the rounding commutes with integer shifts ... *)
Lemma rhe_shift_off_tie q m : ~ tie q (rhe q) -> rhe (q + inject_Z m) = (rhe q + m)%Z.
Proof.
  intros NT. symmetry. apply rhe_unique.
  - pose proof (rhe_near q) as H. unfold near in *. rewrite inject_Z_plus. lra.
  - intros T. exfalso. apply NT. unfold tie in *. rewrite inject_Z_plus in T. lra.
Qed.

(* ... so the wrapped coordinate itself (not only its square) is invariant *)
Lemma wrap_image_off_tie c t m : 0 < c -> ~ tie (t / c) (rhe (t / c)) ->
  wrap c (t + inject_Z m * c) == wrap c t.
Proof.
  intros Hc NT. unfold wrap.
  assert (E : (t + inject_Z m * c) / c == t / c + inject_Z m) by (field; lra).
  rewrite (rhe_comp _ _ E), (rhe_shift_off_tie _ m NT), inject_Z_plus. ring.
Qed.

(* no coordinate difference of the pair is an odd multiple of half a cell length *)
Definition no_tie (cell x y : list Q) : Prop :=
  Forall2 (fun c t => ~ tie (t / c) (rhe (t / c))) cell (vdiff x y).

Lemma wvec_image_off_ties cell m m' x y : cell_pos cell ->
  length m = length cell -> length m' = length cell ->
  length x = length cell -> length y = length cell -> no_tie cell x y ->
  veq (wvec cell (vshift cell m x) (vshift cell m' y)) (wvec cell x y).
Proof.
  intros Hc Hm Hm' Hx Hy. revert m m' Hm Hm'.
  apply (cell_ind (fun cell x y => forall m m', length m = length cell -> length m' = length cell ->
           no_tie cell x y -> veq (wvec cell (vshift cell m x) (vshift cell m' y)) (wvec cell x y)));
    try assumption.
  - intros [|k m] [|k' m'] _ _ _; constructor.
  - clear. intros c a b cell x y Hc _ _ _ IH [|k m] [|k' m'] Hm Hm' NT; try discriminate.
    unfold no_tie in NT. change (vdiff (a :: x) (b :: y)) with ((a - b) :: vdiff x y) in NT.
    inversion NT as [|c2 t2 l2 v2 NT1 NT2]; subst.
    cbn [vshift]. rewrite !wvec_cons. constructor.
    + assert (E : a + inject_Z k * c - (b + inject_Z k' * c) == (a - b) + inject_Z (k - k') * c)
        by (rewrite inject_Z_minus; ring).
      rewrite (wrap_comp c _ _ E). apply wrap_image_off_tie; assumption.
    + apply IH; [now injection Hm|now injection Hm'|exact NT2].
Qed.

Lemma qdot_veq_l u u' v : veq u u' -> qdot u v == qdot u' v.
Proof. intros H. rewrite (qdot_comm u v), (qdot_comm u' v). apply qdot_veq_r. exact H. Qed.

Lemma mvec_veq P v v' : veq v v' -> veq (mvec P v) (mvec P v').
Proof. intros H. apply map_veq. intros row. now apply qdot_veq_r. Qed.

Lemma qform_veq P v v' : veq v v' -> qform P v == qform P v'.
Proof.
  intros H. unfold qform.
  rewrite (qdot_veq_l v v' _ H). apply qdot_veq_r. apply mvec_veq. exact H.
Qed.

Lemma mahal_image_off_ties P cell m m' x y : cell_pos cell ->
  length m = length cell -> length m' = length cell ->
  length x = length cell -> length y = length cell -> no_tie cell x y ->
  mahal2 P (Some cell) (vshift cell m x) (vshift cell m' y) == mahal2 P (Some cell) x y.
Proof.
  intros Hc Hm Hm' Hx Hy NT. unfold mahal2, dvec. apply qform_veq.
  apply wvec_image_off_ties; assumption.
Qed.

(* at an exact tie the Mahalanobis value depends on the image chosen: SPD precision
   [[1; 1/2]; [1/2; 1]], unit cell, difference (1/2, 1/4) vs. the same point one cell further *)
Lemma mahal_image_tie_witness :
  let P := [[1; 1 # 2]; [1 # 2; 1]] in let cell := [1; 1] in
  ~ mahal2 P (Some cell) (vshift cell [1; 0]%Z [1 # 2; 1 # 4]) [0; 0]
    == mahal2 P (Some cell) [1 # 2; 1 # 4] [0; 0].
Proof. cbv zeta. vm_compute. discriminate. Qed.
