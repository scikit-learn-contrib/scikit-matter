(* The orthogonal regression of GRD (ssreflect/mathcomp style): the orthogonal Procrustes problem over a
   real closed field WITHOUT a spectral theorem.  The checkable contract  O^T O = I, O^T M = L^T L  implies
   global optimality (proc_sufficient); two solutions of it have the same symmetric factor (proc_factor_eq);
   for a source of full column rank the padded GRD rows are determined (grd_determined_mx) and do not see
   a rotation of the source or the target (grd_rot_source_mx, grd_rot_target_mx).  Then the contract on
   the environment of Model/Recon.v (slot 15 = L). *)
From mathcomp Require Import all_ssreflect all_algebra.
From Verif Require Import MExpMx Recon ReconExt MxFrobP ReconP.
Set Implicit Arguments.
Unset Strict Implicit.
Unset Printing Implicit Defensive.
Import Order.Theory GRing.Theory Num.Theory.
Close Scope float_scope.
Local Open Scope ring_scope.

Section Procrustes.
  Variable F : rcfType.

  Lemma fro2_sub_orth c r (L : 'M[F]_(c, r)) (Q : 'M[F]_r) :
    Q *m Q^T = 1%:M -> fro2 (L - L *m Q) = 2%:R * (fro2 L - \tr (Q^T *m (L^T *m L))).
  Proof.
    move=> QQ; rewrite fro2_fn2 fn2B -!fro2_fn2 fro2_orth // ipC /ip trmx_mul -mulmxA.
    by rewrite mulrBr addrAC -mulr2n (mulr_natl (fro2 L)).
  Qed.

  Lemma orthVM r (O O2 : 'M[F]_r) :
    O^T *m O = 1%:M -> O2^T *m O2 = 1%:M -> (O^T *m O2) *m (O^T *m O2)^T = 1%:M.
  Proof. by move=> OO /mulmx1C O22; rewrite trmx_mul trmxK mulmxA mulmxKt. Qed.

  (* 0 <= |L - L Q|^2 with Q = O^T O2 *)
  Lemma proc_psd_max r c (M O O2 : 'M[F]_r) (L : 'M[F]_(c, r)) :
    O^T *m O = 1%:M -> O2^T *m O2 = 1%:M -> O^T *m M = L^T *m L ->
    \tr (O2^T *m M) <= \tr (O^T *m M).
  Proof.
    move=> OO O22 HP.
    have QQ := orthVM OO O22.
    have := fn2_ge0 (L - L *m (O^T *m O2)).
    rewrite -fro2_fn2 fro2_sub_orth // pmulr_rge0 ?ltr0n // subr_ge0.
    by rewrite trmx_mul trmxK -mulmxA -HP (mulmxA O) (mulmx1C OO) mul1mx HP.
  Qed.

  Lemma proc_obj n r (A C : 'M[F]_(n, r)) (O : 'M[F]_r) :
    O *m O^T = 1%:M ->
    fro2 (A *m O - C) = fro2 A - 2%:R * \tr (O^T *m (A^T *m C)) + fro2 C.
  Proof.
    by move=> OOt; rewrite fro2_fn2 fn2B -!fro2_fn2 fro2_orth // /ip trmx_mul -mulmxA.
  Qed.

  Lemma proc_sufficient n r c (A C : 'M[F]_(n, r)) (O O2 : 'M[F]_r) (L : 'M[F]_(c, r)) :
    O^T *m O = 1%:M -> O^T *m (A^T *m C) = L^T *m L -> O2^T *m O2 = 1%:M ->
    fro2 (A *m O - C) <= fro2 (A *m O2 - C).
  Proof.
    move=> OO HP O22; rewrite !proc_obj; try exact: mulmx1C.
    rewrite ler_add2r ler_add2l ler_opp2 ler_pmul2l ?ltr0n //.
    exact: proc_psd_max HP.
  Qed.

  Lemma proc_factor_eq r c1 c2 (M O1 O2 : 'M[F]_r) (L1 : 'M[F]_(c1, r)) (L2 : 'M[F]_(c2, r)) :
    O1^T *m O1 = 1%:M -> O2^T *m O2 = 1%:M ->
    O1^T *m M = L1^T *m L1 -> O2^T *m M = L2^T *m L2 -> O2^T *m M = O1^T *m M.
  Proof.
    move=> O11 O22 H1 H2.
    have tE : \tr (O2^T *m M) = \tr (O1^T *m M).
      by apply/eqP; rewrite eq_le (proc_psd_max O11 O22 H1) (proc_psd_max O22 O11 H2).
    pose Q := O1^T *m O2.
    have QQ : Q *m Q^T = 1%:M := orthVM O11 O22.
    have P2 : O2^T *m M = Q^T *m (L1^T *m L1).
      by rewrite -H1 /Q trmx_mul trmxK -mulmxA (mulmxA O1) (mulmx1C O11) mul1mx.
    (* equality in proc_psd_max: L1 = L1 Q *)
    have /fn2_eq0 /subr0_eq LQ : fn2 (L1 - L1 *m Q) = 0.
      by rewrite -fro2_fn2 fro2_sub_orth // -P2 tE H1 subrr mulr0.
    rewrite P2 H1; apply: trmx_inj.
    by rewrite [LHS]trmx_mul trmxK !trmx_mul !trmxK -mulmxA -LQ.
  Qed.

  Lemma grd_determined_mx n m p q r c1 c2 (X : 'M[F]_(n, p)) (T : 'M[F]_(m, p))
        (W : 'M[F]_(p, q)) (Ep : 'M[F]_(p, r)) (Eq : 'M[F]_(q, r)) (O1 O2 : 'M[F]_r)
        (L1 : 'M[F]_(c1, r)) (L2 : 'M[F]_(c2, r)) :
    Ep *m Ep^T = 1%:M -> gram X 0 \in unitmx ->
    O1^T *m O1 = 1%:M -> O2^T *m O2 = 1%:M ->
    O1^T *m ((X *m Ep)^T *m (X *m W *m Eq)) = L1^T *m L1 ->
    O2^T *m ((X *m Ep)^T *m (X *m W *m Eq)) = L2^T *m L2 ->
    rownorm (T *m W *m Eq - T *m Ep *m O1) = rownorm (T *m W *m Eq - T *m Ep *m O2).
  Proof.
    move=> EE Gu O11 O22 H1 H2; set M := (X *m Ep)^T *m _ in H1 H2.
    have PE := proc_factor_eq O11 O22 H1 H2.
    (* S := O1^T M = O2^T M is symmetric, M = O1 S = O2 S, and (W Eq)^T = S K *)
    pose K := O1^T *m Ep^T *m invmx (gram X 0).
    have SK : (W *m Eq)^T = O1^T *m M *m K.
      have <- : (O1^T *m M)^T = O1^T *m M by rewrite H1 trmx_mul trmxK.
      rewrite [in RHS]trmx_mul trmxK /K !mulmxA (mulmxKt _ (mulmx1C O11)) /M [in RHS]trmx_mul trmxK.
      rewrite !mulmxA (mulmxKt _ EE) -!(mulmxA X) [in RHS]trmx_mul -!mulmxA (mulmxA X^T) -gram0.
      by rewrite mulmxV ?mulmx1.
    have key : W *m Eq *m O1^T = W *m Eq *m O2^T.
      apply: trmx_inj; rewrite 2!(trmx_mul (W *m Eq)) !trmxK SK -{2}PE.
      by rewrite !mulmxA (mulmx1C O11) (mulmx1C O22).
    by rewrite [LHS](rownorm_resid _ _ O11) [RHS](rownorm_resid _ _ O22) -!(mulmxA T) key.
  Qed.

  (* a rotation R of the source acts on M from the left, M' = B^T M with the block rotation B = lift Ep R,
     so  B O'  solves the contract of the original problem *)
  Lemma grd_rot_source_mx n m p q r c1 c2 (X : 'M[F]_(n, p)) (T : 'M[F]_(m, p)) (W : 'M[F]_(p, q))
        (Ep : 'M[F]_(p, r)) (Eq : 'M[F]_(q, r)) (R : 'M[F]_p) (O O' : 'M[F]_r)
        (L : 'M[F]_(c1, r)) (L' : 'M[F]_(c2, r)) :
    R *m R^T = 1%:M -> Ep *m Ep^T = 1%:M -> gram X 0 \in unitmx ->
    O^T *m O = 1%:M -> O'^T *m O' = 1%:M ->
    O^T *m ((X *m Ep)^T *m (X *m W *m Eq)) = L^T *m L ->
    O'^T *m ((X *m R *m Ep)^T *m (X *m W *m Eq)) = L'^T *m L' ->
    rownorm (T *m W *m Eq - T *m R *m Ep *m O') = rownorm (T *m W *m Eq - T *m Ep *m O).
  Proof.
    move=> RR EE Gu OO OO' HP HP'; set B := lift Ep R.
    have EB : Ep *m B = R *m Ep := E_lift EE R.
    have OB := orthM (lift_orth EE RR) OO'.
    have HB : (B *m O')^T *m ((X *m Ep)^T *m (X *m W *m Eq)) = L'^T *m L'.
      by rewrite -HP' -!(mulmxA X) -EB !trmx_mul !mulmxA.
    rewrite -!(mulmxA T R) -EB (mulmxA T) -(mulmxA _ B).
    exact: grd_determined_mx EE Gu OB OO HB HP.
  Qed.

  (* a rotation R of the target acts from the right, M' = M B with B = lift Eq R, so it is  O' B^T  (and
     the factor L' B^T) that solves the original contract *)
  Lemma grd_rot_target_mx n m p q r c1 c2 (X : 'M[F]_(n, p)) (T : 'M[F]_(m, p)) (W : 'M[F]_(p, q))
        (Ep : 'M[F]_(p, r)) (Eq : 'M[F]_(q, r)) (R : 'M[F]_q) (O O' : 'M[F]_r)
        (L : 'M[F]_(c1, r)) (L' : 'M[F]_(c2, r)) :
    R *m R^T = 1%:M -> Ep *m Ep^T = 1%:M -> Eq *m Eq^T = 1%:M -> gram X 0 \in unitmx ->
    O^T *m O = 1%:M -> O'^T *m O' = 1%:M ->
    O^T *m ((X *m Ep)^T *m (X *m W *m Eq)) = L^T *m L ->
    O'^T *m ((X *m Ep)^T *m (X *m (W *m R) *m Eq)) = L'^T *m L' ->
    rownorm (T *m (W *m R) *m Eq - T *m Ep *m O') = rownorm (T *m W *m Eq - T *m Ep *m O).
  Proof.
    move=> RR EE EEq Gu OO OO' HP HP'; set B := lift Eq R.
    have EB : Eq *m B = R *m Eq := E_lift EEq R.
    have BtB : B^T *m B = 1%:M := lift_orth EEq RR.
    have BBt : B *m B^T = 1%:M := mulmx1C BtB.
    pose O2 := O' *m B^T.
    have O22 : O2^T *m O2 = 1%:M.
      by rewrite /O2 trmx_mul trmxK -mulmxA (mulmxA _^T) OO' mul1mx.
    have HB : O2^T *m ((X *m Ep)^T *m (X *m W *m Eq)) = (L' *m B^T)^T *m (L' *m B^T).
      rewrite [in RHS]trmx_mul trmxK -!mulmxA (mulmxA _^T L') -HP' /O2 trmx_mul trmxK -!mulmxA.
      by rewrite (mulmxA R) -EB -!mulmxA BBt mulmx1.
    have -> : T *m (W *m R) *m Eq - T *m Ep *m O' = (T *m W *m Eq - T *m Ep *m O2) *m B.
      by rewrite mulmxBl /O2 -!mulmxA BtB mulmx1 EB.
    rewrite (rownorm_orth _ BBt); exact: grd_determined_mx EE Gu O22 OO HB HP.
  Qed.
End Procrustes.

(* reader of slot 15, the factor L of Model/ReconExt.v *)
Definition rc_L (F : rcfType) (env : env_mx F) r : 'M[F]_r := env r r 15%N.

Section Contract.
  Variable F : rcfType.
  Variables (n p q r : nat).
  Implicit Types env : env_mx F.

  Definition proc_M env : 'M[F]_r :=
    (Xs_tr n p env *m rc_Ep env p r)^T *m (Xs_tr n p env *m rc_W env p q *m rc_Eq env q r).

  (* what the correspondence evaluates: Omega orthogonal, Omega^T M = L^T L *)
  Definition proc_contract env : Prop :=
    (rc_Om env r)^T *m rc_Om env r = 1%:M /\ eval_mx env (omega_psd_resid n p q r) = 0.

  Lemma omega_psdE env :
    eval_mx env (omega_psd_resid n p q r)
    = (rc_Om env r)^T *m proc_M env - (rc_L env r)^T *m rc_L env r.
  Proof. by rewrite /omega_psd_resid /= proc_mE. Qed.

  Lemma proc_contractP env :
    proc_contract env ->
    (rc_Om env r)^T *m rc_Om env r = 1%:M /\ (rc_Om env r)^T *m proc_M env = (rc_L env r)^T *m rc_L env r.
  Proof. by case=> OO; rewrite omega_psdE => /subr0_eq. Qed.

End Contract.
Global Opaque omega_psd_resid.

Section ProcrustesWitness.
  Variable F : rcfType.

  (* the environment of tiny_recon_env (X = Y = [[0],[2]], W = 1, alpha = 0) with
     Omega = E_p = E_q = 1 and L = sqrt 2:  M = Xs^T Xs = 2 *)
  Definition tiny_recon_env2 : env_mx F :=
    fun a b x => if x == 15%N then \matrix_(i, j) Num.sqrt 2%:R
                 else if [|| x == 5%N, x == 6%N | x == 7%N] then \matrix_(i, j) 1
                 else tiny_recon_env F a b x.

  Lemma tiny_recon2_ok :
    let env := tiny_recon_env2 in
    [/\ proc_contract 2 1 1 1 env, rc_Ep env 1 1 *m (rc_Ep env 1 1)^T = 1%:M,
        rc_Eq env 1 1 *m (rc_Eq env 1 1)^T = 1%:M, gram (Xs_tr 2 1 env) 0 \in unitmx
      & rc_alpha env = 0 /\ eval_mx env (ridge_hyp_prog 2 1 1) = 0].
  Proof.
    move=> env.
    have [_ _ _ [vx _] [a0 Hr Gu]] := tiny_recon_ok F.
    have c1 : (\matrix_(i, j) 1 : 'M[F]_1) = 1%:M.
      by apply/matrixP => i j; rewrite !mxE !ord1 eqxx.
    have [EO EEp EEq] : [/\ rc_Om env 1 = 1%:M, rc_Ep env 1 1 = 1%:M & rc_Eq env 1 1 = 1%:M].
      by split; rewrite /rc_Om /rc_Ep /rc_Eq /env /tiny_recon_env2 /= c1.
    have EL : rc_L env 1 = (Num.sqrt 2%:R)%:M.
      by apply/matrixP => i j; rewrite /rc_L /env /tiny_recon_env2 /= !mxE !ord1 eqxx mulr1n.
    have EW : rc_W env 1 1 = 1%:M.
      by apply/matrixP => i j; rewrite !mxE /= !ord1 eqxx.
    have EX : Xs_tr 2 1 env = Xs_tr 2 1 (tiny_recon_env F) by [].
    split; [split; first by rewrite EO trmx1 mulmx1 | by rewrite EEp trmx1 mulmx1
           | by rewrite EEq trmx1 mulmx1 | exact: Gu | by split].
    rewrite omega_psdE /proc_M EO EEp EEq EW EL trmx1 !mulmx1 mul1mx EX.
    by rewrite tr_scalar_mx -scalar_mxM -expr2 sqr_sqrtr ?ler0n // gram_col /Xs_tr std_fro2 // subrr.
  Qed.
End ProcrustesWitness.
