(* Samples sharing their position (Model/DCHExt.v part 1; any number of hull dimensions), and for
   one hull dimension: the specification's lower vertices on any sample list, their decision
   procedure, the monotone chain.  Scoring on a fitted object (part 4).  Stdlib style. *)
From Verif Require Import ListX DCH DCHSpecP DCHChainP DCHExt.

Local Open Scope Z_scope.

(* any number of hull dimensions: a sample with another sample at the same position and a
   target <= its own is not a lower vertex (the other sample alone is the combination) *)
Theorem stacked_not_lower d P i :
  (i < length P)%nat -> stacked_below d P i -> below_combo d P i.
Proof.
  intros Hi (j & Hj & Hne & Hx & Hy).
  apply (witness_combo d P i [j] 1 [1]); try assumption.
  - reflexivity.
  - intros k [<-|[]]. split; assumption.
  - lia.
  - intros a [<-|[]]. lia.
  - reflexivity.
  - intros c Hc. cbn [sumjc]. rewrite nth_col by assumption. rewrite (Hx c Hc). lia.
  - cbn [sumjc]. rewrite nth_col by assumption. lia.
Qed.

Lemma stacked_below_1d_b_spec P i :
  stacked_below_1d_b P i = true <-> stacked_below 1 P i.
Proof.
  unfold stacked_below_1d_b. rewrite existsb_exists. split.
  - intros (j & Hj & E). apply in_seq in Hj.
    apply andb_true_iff in E as [E E3]. apply andb_true_iff in E as [E1 E2].
    apply negb_true_iff, Nat.eqb_neq in E1. apply Z.eqb_eq in E2. apply Z.leb_le in E3.
    exists j. split; [lia|]. split; [exact E1|]. split; [|exact E3].
    intros c Hc. assert (c = 1)%nat as -> by lia. exact E2.
  - intros (j & Hj & Hne & Hx & Hy). exists j. split; [apply in_seq; lia|].
    rewrite !andb_true_iff, negb_true_iff, Nat.eqb_neq, Z.eqb_eq, Z.leb_le.
    split; [split; [exact Hne|apply Hx; lia]|exact Hy].
Qed.

(* two samples straddling x_i whose segment passes on or below sample i: the point of the segment
   above x_i is the combination *)
Lemma segment_below_combo P i :
  (i < length P)%nat -> not_lower_1d (map pt1 P) (pt1 (nth i P [])) -> below_combo 1 P i.
Proof.
  intros Hi (a & b & Ha & Hb & H1 & H2 & H3).
  apply in_map_iff in Ha as (pa & <- & Ha). apply in_map_iff in Hb as (pb & <- & Hb).
  destruct (In_nth _ _ [] Ha) as (ja & Hja & Ea). destruct (In_nth _ _ [] Hb) as (jb & Hjb & Eb).
  rewrite cross_pt1 in H3. cbn [pt1 fst] in H1, H2.
  apply (witness_combo 1 P i [ja; jb] (nth 1 pb 0 - nth 1 pa 0)
           [nth 1 pb 0 - nth 1 (nth i P []) 0; nth 1 (nth i P []) 0 - nth 1 pa 0]); try assumption.
  - reflexivity.
  - intros j [<-|[<-|[]]]; (split; [assumption|]); intros ->; rewrite ?Ea, ?Eb in *; lia.
  - lia.
  - intros c [<-|[<-|[]]]; nia.
  - unfold zsum. cbn. lia.
  - intros c Hc. assert (c = 1)%nat as -> by lia. cbn [sumjc].
    rewrite !nth_col, Ea, Eb by assumption. ring.
  - cbn [sumjc]. rewrite !nth_col, Ea, Eb by assumption. nia.
Qed.

Theorem below_combo_1d_any P i :
  (i < length P)%nat ->
  (below_combo 1 P i <->
   stacked_below 1 P i \/ not_lower_1d (map pt1 P) (pt1 (nth i P []))).
Proof.
  intros Hi. split.
  - intros (w & W & HW & Hl & Hn & Hz & Hs & Hx & Hy).
    destruct (caratheodory_1d (fun t => nth 1 (snd t) 0 - nth 1 (nth i P []) 0)
                (fun t => nth 0 (snd t) 0 - nth 0 (nth i P []) 0) (combine w P) fst)
      as [(t & Ht & Hp & HU & HV) | (a & b & Ha & Hb & Ua & Ub & G)].
    + intros t Ht. destruct (in_combine_nth _ _ _ Hl Ht) as (j & _ & ->). apply Hn.
    + rewrite sumf_combine_zsum by assumption. lia.
    + rewrite sumf_rel, (Hx 1%nat), Hs by (assumption || lia). lia.
    + rewrite sumf_rel, Hs by assumption. lia.
    + left. destruct (in_combine_nth _ _ _ Hl Ht) as (j & Hj & ->). cbn [fst snd] in *.
      exists j. split; [assumption|]. split; [intros ->; lia|]. split; [|lia].
      intros c Hc. assert (c = 1)%nat as -> by lia. lia.
    + right. exists (pt1 (snd a)), (pt1 (snd b)).
      split; [apply in_map; destruct a; eapply in_combine_r; eassumption|].
      split; [apply in_map; destruct b; eapply in_combine_r; eassumption|].
      rewrite cross_pt1. cbn [pt1 fst]. lia.
  - intros [Hst|H]; [now apply stacked_not_lower|now apply segment_below_combo].
Qed.

Theorem below_combo_1d P i :
  (i < length P)%nat ->
  (forall j, (j < length P)%nat -> j <> i -> nth 1 (nth j P []) 0 <> nth 1 (nth i P []) 0) ->
  (below_combo 1 P i <-> not_lower_1d (map pt1 P) (pt1 (nth i P []))).
Proof.
  intros Hi Hdist. rewrite below_combo_1d_any by assumption. split; [|now right].
  intros [(j & Hj & Hne & Hx & _)|H]; [|exact H]. destruct (Hdist j Hj Hne). apply Hx. lia.
Qed.

Theorem lower_vertex_1d_b_spec P i :
  (i < length P)%nat -> (lower_vertex_1d_b P i = true <-> is_lower_vertex 1 P i).
Proof.
  intros Hi. unfold lower_vertex_1d_b, is_lower_vertex.
  rewrite (below_combo_1d_any P i Hi), andb_true_iff, !negb_true_iff.
  rewrite <- stacked_below_1d_b_spec, <- not_lower_1d_b_spec.
  destruct (stacked_below_1d_b P i), (not_lower_1d_b (map pt1 P) (pt1 (nth i P []))); intuition congruence.
Qed.

Theorem chain_1d_complete P pts i :
  (i < length P)%nat ->
  (forall j, (j < length P)%nat -> j <> i -> nth 1 (nth j P []) 0 <> nth 1 (nth i P []) 0) ->
  sorted_x pts = true -> (forall q, In q pts <-> In q (map pt1 P)) ->
  (In (pt1 (nth i P [])) (chain pts) <-> is_lower_vertex 1 P i).
Proof.
  intros Hi Hdist Hsx Hmem. unfold is_lower_vertex. rewrite (below_combo_1d P i Hi Hdist).
  set (q := pt1 (nth i P [])).
  assert (Ext : not_lower_1d pts q <-> not_lower_1d (map pt1 P) q).
  { split; intros (a & b & Ha & Hb & R); exists a, b; (split; [now apply Hmem|]);
      (split; [now apply Hmem|exact R]). }
  rewrite <- Ext, (chain_is_lower_hull pts Hsx), filter_In, <- not_lower_1d_b_spec.
  assert (Hq : In q pts) by (apply Hmem, in_map, nth_In, Hi).
  unfold lower_1d_b. destruct (not_lower_1d_b pts q); cbn; intuition congruence.
Qed.

Local Open Scope nat_scope.

Theorem score_after_fit o nfeat fs X y :
  fit_guard (o_low o) (Z.of_nat nfeat) = Done ->
  (forall f, In f (lower_facets fs) -> length (fnormal f) = S (length (o_low o))) ->
  let o' := snd (obj_fit o nfeat fs) in
  fst (obj_fit o nfeat fs) = Done /\
  obj_score o' nfeat X y
  = (Done, score_samples (o_tol o) (lower_facets fs) (low_nat (o_low o)) X y).
Proof.
  intros H Hdim. unfold obj_fit. rewrite H. cbn [fst snd]. split; [reflexivity|].
  unfold obj_score. cbn [o_hull o_high o_nfeat o_low o_tol hs_facets]. rewrite Nat.eqb_refl. cbn [negb].
  assert (R : idx_out_of_range nfeat (o_low o) = false).
  { unfold fit_guard in H.
    destruct ((Z.of_nat nfeat <? zmax_list (map Z.abs (o_low o)))%Z && (0 <=? zmin_list (o_low o))%Z)%bool;
      [discriminate|].
    unfold idx_out_of_range.
    destruct (existsb (fun j => ((Z.of_nat nfeat <=? j)%Z || (j <? - Z.of_nat nfeat)%Z)%bool) (o_low o));
      [discriminate|reflexivity]. }
  rewrite R.
  assert (M : dim_mismatch (o_low o) (lower_facets fs) = false).
  { unfold dim_mismatch. destruct (existsb _ (lower_facets fs)) eqn:E; [|reflexivity].
    apply existsb_exists in E as (f & Hf & E). rewrite (Hdim f Hf), Nat.eqb_refl in E. discriminate. }
  rewrite M. reflexivity.
Qed.
