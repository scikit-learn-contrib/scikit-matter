(* C06: the Voronoi bookkeeping computes exactly plain FPS's distance table, for every
   branch schedule (every full_fraction, every outcome of the timing calibration).
   Under the invariant every per-candidate array is a function tabulated over the candidates,
   [map f (seq 0 n)]; the element-wise numpy operations of one update then act on the functions. *)
From Verif Require Import ListX FPS Voronoi ListXP FPSP FPSInst GeomP.

Lemma zip3_map {A B C D} (f : A -> B -> C -> D) b c l :
  zip3 f l (map b l) (map c l) = map (fun x => f x (b x) (c x)) l.
Proof. induction l as [|x l IH]; cbn; [reflexivity|now rewrite IH]. Qed.

Lemma count_true_zero m : count_true m = O -> forall j, nth j m false = false.
Proof.
  unfold count_true. induction m as [|b m IH]; intros H [|j]; cbn; auto.
  - destruct b; [discriminate|reflexivity].
  - apply IH. destruct b; [discriminate|exact H].
Qed.

Lemma count_true_all n0 : (0 < n0)%nat -> count_true (repeat true n0) <> O.
Proof. destruct n0; [lia|]. cbn. discriminate. Qed.

(* np.minimum and `<` against one finite new distance *)
Lemma ext_min2_some h x :
  ext_min2 h (Some x) = ext_min h x /\
  (if ext_lt (Some x) h then ext_min h x = Some x else ext_min h x = h).
Proof.
  unfold ext_min2, ext_lt, ext_min. destruct h as [hz|]; [|auto].
  destruct (Z.ltb_spec x hz); split; f_equal; lia.
Qed.

Lemma ext_min2_same h : ext_min2 h h = h /\ ext_lt h h = false.
Proof. unfold ext_min2, ext_lt. destruct h; [rewrite Z.ltb_irrefl|]; auto. Qed.

Section VorP.
  Variable cs : list (list Z).
  Variable d : nat.
  Hypothesis Hdim : Forall (fun c => length c = d) cs.
  Variable br : nat -> nat -> bool.
  Let n := length cs.
  Notation dist := (fps_dist cs).
  Notation cnd i := (nth i cs []).
  Notation tab := (tabmin dist).

  Lemma d2_dist j l : (j < n)%nat -> (l < n)%nat -> d2 cs j l = dist j l.
  Proof.
    intros Hj Hl. unfold d2, fps_norms, fps_dist.
    change 0 with (sqn []). rewrite !map_nth.
    apply sqdist_expand. rewrite !(cnd_len cs d Hdim) by assumption. reflexivity.
  Qed.

  Lemma dist_sym j l : dist j l = dist l j.
  Proof using. apply sqdist_sym. Qed.

  (* [sl] = the selections as _get_active sees them, all in range; the three arrays have one entry
     per candidate; the table holds the true minima (plain FPS's table); and, once something is
     selected, each candidate's recorded cell is a selected point at exactly that minimum *)
  Definition VInv (s : vst) (sl : list nat) : Prop :=
    v_sel s = sl /\ Forall (fun i => (i < n)%nat) sl /\
    length (v_haus s) = n /\ length (v_hsel s) = n /\ length (v_vloc s) = n /\
    v_haus s = map (fun j => tab j sl) (seq 0 n) /\
    (sl <> [] -> forall j, (j < n)%nat ->
       (nth j (v_vloc s) O < length sl)%nat /\
       nth j (v_haus s) None = Some (dist j (nth (nth j (v_vloc s) O) sl O))).

  Definition new_tab (sl : list nat) (i : nat) : list ExtZ :=
    map (fun j => ext_min (tab j sl) (dist j i)) (seq 0 n).

  Lemma VInv_sel s sl : VInv s sl -> v_sel s = sl.
  Proof. now intros (H & _). Qed.

  Lemma VInv_tab s sl : VInv s sl -> v_haus s = map (fun j => tab j sl) (seq 0 n).
  Proof. now intros (_ & _ & _ & _ & _ & H & _). Qed.

  Definition cell_of (s : vst) (j : nat) : nat := nth j (v_vloc s) O.

  Lemma vloc_map s sl : VInv s sl -> v_vloc s = map (cell_of s) (seq 0 n).
  Proof. intros (_ & _ & _ & _ & Hl3 & _). exact (as_map_seq (v_vloc s) n O Hl3). Qed.

  (* the recorded cell of j is a selected point realising j's table entry; the entry written as
     [tab j sl] (the table conjunct) instead of [nth j (v_haus s) None] *)
  Lemma VInv_cell s sl j : VInv s sl -> sl <> [] -> (j < n)%nat ->
    (cell_of s j < length sl)%nat /\ (nth (cell_of s j) sl O < n)%nat /\
    tab j sl = Some (dist j (nth (cell_of s j) sl O)).
  Proof.
    intros (_ & Hr & _ & _ & _ & Ht & Hc) Hne Hj. destruct (Hc Hne j Hj) as [Hv Hd].
    rewrite Ht, nth_map_seq in Hd by exact Hj. repeat split; auto.
    rewrite Forall_forall in Hr. apply Hr, nth_In, Hv.
  Qed.

  Definition is_active (s : vst) (sl : list nat) (i j : nat) : bool :=
    match sl with
    | [] => true
    | _ => match tab j sl with
           | None => true
           | Some hz => nth (cell_of s j) (dSL4 cs s i) 0 <? 4 * hz end
    end.

  Lemma active_map s sl i : VInv s sl -> active cs s i = map (is_active s sl i) (seq 0 n).
  Proof.
    intros HV. pose proof (VInv_tab s sl HV) as Ht. unfold active, is_active. rewrite (VInv_sel s sl HV).
    destruct sl as [|a sl']; [now rewrite Ht, map_map|].
    now rewrite Ht, (vloc_map s _ HV), map2_map.
  Qed.

  (* inactive candidates cannot lower their distance: the pruning rule *)
  Lemma inactive_keeps s sl i j :
    VInv s sl -> (i < n)%nat -> (j < n)%nat -> is_active s sl i j = false ->
    exists hz, tab j sl = Some hz /\ hz <= dist j i.
  Proof.
    intros HV Hi Hj Ha. unfold is_active in Ha. destruct sl as [|a sl'] eqn:E; [discriminate|]. rewrite <- E in *.
    assert (Hne : sl <> []) by (rewrite E; discriminate).
    destruct (VInv_cell s sl j HV Hne Hj) as (Hv & HS & Ht). rewrite Ht in Ha |- *.
    eexists; split; [reflexivity|]. apply Z.ltb_ge in Ha.
    unfold dSL4 in Ha. rewrite (VInv_sel s sl HV) in Ha.
    rewrite (nth_map_lt (fun k => d2 cs k i) sl _ 0 O Hv), d2_dist in Ha by assumption.
    unfold fps_dist in *. apply (prune_sound (cnd (nth (cell_of s j) sl O)) (cnd i) (cnd j)).
    1,2: rewrite !(cnd_len cs d Hdim) by assumption; reflexivity.
    now rewrite (sqdist_sym (cnd i)).
  Qed.

  (* one candidate: whatever new_dist_ holds for it, the minimum is the true new minimum, and
     the candidate moves to the new cell only if the new point realises it *)
  Lemma vupd_point s sl i j nw :
    VInv s sl -> (i < n)%nat -> (j < n)%nat ->
    nw = Some (dist j i) \/ (is_active s sl i j = false /\ nw = tab j sl) ->
    ext_min2 (tab j sl) nw = tab j (sl ++ [i]) /\
    (if ext_lt nw (tab j sl) then tab j (sl ++ [i]) = Some (dist j i)
     else tab j (sl ++ [i]) = tab j sl).
  Proof.
    intros HV Hi Hj. rewrite tabmin_app. intros [->|[Ha ->]]; [apply ext_min2_some|].
    destruct (inactive_keeps s sl i j HV Hi Hj Ha) as (hz & -> & Hle).
    destruct (ext_min2_same (Some hz)) as [-> ->]. cbn. split; f_equal; lia.
  Qed.

  Definition new_entry (s : vst) (sl : list nat) (i : nat) (full : bool) (j : nat) : ExtZ :=
    if full then Some (d2 cs j i)
    else if (j =? i)%nat then Some 0
    else if is_active s sl i j then Some (d2 cs j i) else tab j sl.

  Lemma vnew_map s sl i full : VInv s sl ->
    vnew cs s i (map (is_active s sl i) (seq 0 n)) full = map (new_entry s sl i full) (seq 0 n).
  Proof.
    intros HV. pose proof (VInv_tab s sl HV) as Ht. unfold vnew, new_entry. fold n. destruct full; [reflexivity|].
    now rewrite Ht, zip3_map, (upd_nth_map_seq _ _ i n 0).
  Qed.

  Lemma new_entry_cases s sl i full j : (i < n)%nat -> (j < n)%nat ->
    new_entry s sl i full j = Some (dist j i) \/ (is_active s sl i j = false /\ new_entry s sl i full j = tab j sl).
  Proof.
    intros Hi Hj. unfold new_entry. destruct full; [left; now rewrite d2_dist|].
    destruct (Nat.eqb_spec j i) as [->|_]; [left; now rewrite fps_dist_self|].
    destruct (is_active s sl i j); [left; now rewrite d2_dist|now right].
  Qed.

  (* one candidate: its cell after the update is a selected point realising the new entry *)
  Lemma vupd_point_cell s sl i j nw :
    VInv s sl -> (i < n)%nat -> (j < n)%nat ->
    nw = Some (dist j i) \/ (is_active s sl i j = false /\ nw = tab j sl) ->
    let c := if (j =? i)%nat then length sl else if ext_lt nw (tab j sl) then length sl else cell_of s j in
    (c < length sl + 1)%nat /\ tab j (sl ++ [i]) = Some (dist j (nth c (sl ++ [i]) O)).
  Proof.
    intros HV Hi Hj Hnw. destruct (vupd_point s sl i j nw HV Hi Hj Hnw) as [_ Hp].
    assert (Hnew_cell : tab j (sl ++ [i]) = Some (dist j i) ->
              (length sl < length sl + 1)%nat /\
              tab j (sl ++ [i]) = Some (dist j (nth (length sl) (sl ++ [i]) O))).
    { intros ->. now rewrite nth_middle; split; [lia|]. }
    cbv zeta. destruct (Nat.eqb_spec j i) as [->|Hji].
    - (* the selected point itself: distance 0 to its own cell *)
      apply Hnew_cell. rewrite fps_dist_self.
      apply (tabmin_selected dist (fps_dist_nonneg cs) (fps_dist_self cs)), in_or_app; cbn; auto.
    - destruct (ext_lt nw (tab j sl)); [exact (Hnew_cell Hp)|].
      (* stays in its cell, which exists because the entry is finite *)
      assert (Hne : sl <> []).
      { intros ->. destruct (tabmin_some dist (fps_dist_nonneg cs) j ([] ++ [i])) as (z & Hz & _);
          [discriminate|]. rewrite Hp in Hz. discriminate. }
      destruct (VInv_cell s sl j HV Hne Hj) as (Hlt & _ & Hcell).
      rewrite Hp, app_nth1 by exact Hlt. split; [lia|exact Hcell].
  Qed.

  (* the list manipulations of one update, once: table and cells as tabulated functions *)
  Lemma vupd_shape s sl i : VInv s sl -> (i < n)%nat -> exists nw,
    (forall j, (j < n)%nat -> nw j = Some (dist j i) \/ (is_active s sl i j = false /\ nw j = tab j sl)) /\
    v_haus (vupd cs br s i) = map (fun j => ext_min2 (tab j sl) (nw j)) (seq 0 n) /\
    v_vloc (vupd cs br s i)
    = map (fun j => if (j =? i)%nat then length sl
                    else if ext_lt (nw j) (tab j sl) then length sl else cell_of s j) (seq 0 n).
  Proof.
    intros HV Hi. pose proof (VInv_sel s sl HV) as Hs. pose proof (VInv_tab s sl HV) as Ht.
    unfold vupd. rewrite (active_map s sl i HV), Hs, (vloc_map s sl HV), Ht.
    destruct (Nat.eqb _ 0) eqn:Ec; cbn [v_haus v_vloc].
    - (* nothing active *)
      exists (fun j => tab j sl). split; [|split].
      + intros j Hj. right. split; [|reflexivity]. apply Nat.eqb_eq in Ec.
        rewrite <- (nth_map_seq (is_active s sl i) n j false Hj). now apply count_true_zero.
      + apply map_ext. intros j. symmetry. apply ext_min2_same.
      + rewrite (upd_nth_map_seq _ _ i n 0).
        apply map_ext. intros j. now rewrite (proj2 (ext_min2_same _)).
    - rewrite (vnew_map s sl i _ HV). eexists. split; [intros j Hj; now apply new_entry_cases|].
      now rewrite !map2_map, (upd_nth_map_seq _ _ i n 0).
  Qed.

  Lemma vupd_sel s i : v_sel (vupd cs br s i) = v_sel s ++ [i].
  Proof. unfold vupd. destruct (Nat.eqb _ 0); reflexivity. Qed.

  Lemma vupd_hsel s i :
    v_hsel (vupd cs br s i) = upd_nth i (nth i (v_haus s) None) (v_hsel s).
  Proof. unfold vupd. destruct (Nat.eqb _ 0); reflexivity. Qed.

  Theorem vupd_inv s sl i :
    VInv s sl -> (i < n)%nat ->
    VInv (vupd cs br s i) (sl ++ [i]) /\
    v_haus (vupd cs br s i) = new_tab sl i /\
    v_hsel (vupd cs br s i) = upd_nth i (nth i (v_haus s) None) (v_hsel s).
  Proof using Hdim.
    intros HV Hi. pose proof HV as (Hs & Hr & Hl1 & Hl2 & Hl3 & Ht & Hc).
    destruct (vupd_shape s sl i HV Hi) as (nw & Hnw & Hh & Hv).
    assert (Hhaus : v_haus (vupd cs br s i) = map (fun j => tab j (sl ++ [i])) (seq 0 n)).
    { rewrite Hh. apply map_seq_ext. intros j Hj. apply (vupd_point s sl i j), Hnw; assumption. }
    split; [|split; [rewrite Hhaus; apply map_ext; intros j; apply tabmin_app|apply vupd_hsel]].
    split; [now rewrite vupd_sel, Hs|]. split; [apply Forall_app; auto|].
    split; [now rewrite Hhaus, map_length, seq_length|].
    split; [now rewrite vupd_hsel, upd_nth_length|].
    split; [now rewrite Hv, map_length, seq_length|]. split; [exact Hhaus|].
    intros _ j Hj. rewrite Hhaus, Hv, !nth_map_seq, app_length by exact Hj.
    exact (vupd_point_cell s sl i j (nw j) HV Hi Hj (Hnw j Hj)).
  Qed.
End VorP.
