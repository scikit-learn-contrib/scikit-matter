(* The specification of "lower vertex" does not depend on WHERE in the sample list a sample
   stands: moving one sample from an arbitrary index to the end (rotation) preserves
   below_combo.  Hence the add-above theorems hold for a sample inserted at any index.
   Nor does it depend on the unit of the positions: scaling them by a non-zero factor preserves
   below_combo (with below_combo_affine for the target: every change of units).
   Stdlib style, over Z. *)
From Verif Require Import ListX ListXP DCH DCHSpecP DCHExt.

(* index of the j-th sample of  P1 ++ q :: P2  inside  (P1 ++ P2) ++ [q] *)
Definition rot_idx (n1 n2 j : nat) : nat :=
  if Nat.ltb j n1 then j else if Nat.eqb j n1 then (n1 + n2)%nat else (j - 1)%nat.

Lemma nth_rot {A} (l1 l2 : list A) x d j :
  (j < length l1 + S (length l2))%nat ->
  nth j (l1 ++ x :: l2) d = nth (rot_idx (length l1) (length l2) j) ((l1 ++ l2) ++ [x]) d.
Proof.
  intros Hj. unfold rot_idx.
  destruct (Nat.ltb j (length l1)) eqn:L.
  - apply Nat.ltb_lt in L. rewrite app_nth1 by assumption.
    rewrite app_nth1 by (rewrite app_length; lia). now rewrite app_nth1 by assumption.
  - apply Nat.ltb_ge in L. destruct (Nat.eqb j (length l1)) eqn:E.
    + apply Nat.eqb_eq in E. subst j. rewrite nth_middle.
      rewrite app_nth2 by (rewrite app_length; lia). rewrite app_length.
      replace (length l1 + length l2 - (length l1 + length l2))%nat with 0%nat by lia. reflexivity.
    + apply Nat.eqb_neq in E. rewrite app_nth2 by assumption.
      replace (j - length l1)%nat with (S (j - 1 - length l1)) by lia. cbn [nth].
      rewrite app_nth1 by (rewrite app_length; lia). rewrite app_nth2 by lia.
      f_equal; lia.
Qed.

Lemma nonneg_nth_Forall (l : list Z) : (forall j, 0 <= nth j l 0) <-> Forall (fun a => 0 <= a) l.
Proof.
  split.
  - intros H. apply Forall_forall. intros a Ha. destruct (In_nth _ _ 0 Ha) as (j & _ & <-). apply H.
  - intros H j. destruct (Nat.lt_ge_cases j (length l)) as [L|L].
    + rewrite Forall_forall in H. apply H. now apply nth_In.
    + rewrite nth_overflow by assumption. lia.
Qed.

Lemma split_mid {A} (l : list A) n1 n2 :
  length l = (n1 + S n2)%nat ->
  exists l1 x l2, l = l1 ++ x :: l2 /\ length l1 = n1 /\ length l2 = n2.
Proof.
  intros H. pose proof (firstn_skipn n1 l) as E.
  destruct (skipn n1 l) as [|x l2] eqn:Sk.
  - exfalso. assert (L : length (skipn n1 l) = 0%nat) by now rewrite Sk. rewrite skipn_length in L. lia.
  - exists (firstn n1 l), x, l2. split; [now symmetry|].
    assert (L1 : length (firstn n1 l) = n1) by (rewrite firstn_length; lia). split; [exact L1|].
    assert (L : length (skipn n1 l) = S (length l2)) by now rewrite Sk. rewrite skipn_length in L. lia.
Qed.

Lemma split_end {A} (l : list A) n1 n2 :
  length l = (n1 + n2 + 1)%nat ->
  exists l1 l2 x, l = (l1 ++ l2) ++ [x] /\ length l1 = n1 /\ length l2 = n2.
Proof.
  intros H. destruct (exists_last (l := l)) as (l' & x & ->); [intros ->; cbn in H; lia|].
  rewrite app_length in H. cbn in H.
  exists (firstn n1 l'), (skipn n1 l'), x. rewrite firstn_skipn. split; [reflexivity|].
  rewrite firstn_length, skipn_length. lia.
Qed.

Lemma col_cons p P c : col (p :: P) c = nth c p 0 :: col P c.
Proof. reflexivity. Qed.

Section Rotate.
  Variable d : nat.
  Variables P1 P2 : list (list Z).
  Variable q : list Z.

  Lemma dot_rot w1 wq w2 c :
    length w1 = length P1 -> length w2 = length P2 ->
    dot (w1 ++ wq :: w2) (col (P1 ++ q :: P2) c) = dot ((w1 ++ w2) ++ [wq]) (col ((P1 ++ P2) ++ [q]) c).
  Proof.
    intros L1 L2.
    rewrite (col_app P1 (q :: P2)), dot_app by (now rewrite col_length).
    rewrite col_cons, dot_cons.
    rewrite (col_app (P1 ++ P2) [q]), dot_app by (rewrite col_length, !app_length; lia).
    rewrite (col_app P1 P2), dot_app by (now rewrite col_length).
    unfold dot at 5. cbn. lia.
  Qed.

  Lemma zsum_rot w1 wq w2 : zsum (w1 ++ wq :: w2) = zsum ((w1 ++ w2) ++ [wq]).
  Proof.
    rewrite !zsum_app. unfold zsum at 2 5. cbn. fold (zsum w2). lia.
  Qed.

  Lemma Forall_rot (R : Z -> Prop) w1 wq w2 :
    Forall R (w1 ++ wq :: w2) <-> Forall R ((w1 ++ w2) ++ [wq]).
  Proof.
    rewrite !Forall_app. split.
    - intros [H1 H2]. inversion H2; subst. repeat split; auto.
    - intros [[H1 H2] H3]. inversion H3; subst. split; auto.
  Qed.

  Theorem below_combo_rotate j :
    (j < length P1 + S (length P2))%nat ->
    (below_combo d (P1 ++ q :: P2) j <->
     below_combo d ((P1 ++ P2) ++ [q]) (rot_idx (length P1) (length P2) j)).
  Proof.
    (* split w at |P1| and move the middle weight to the end; every clause sums the same terms *)
    intros Hj.
    assert (Ept : nth j (P1 ++ q :: P2) [] = nth (rot_idx (length P1) (length P2) j) ((P1 ++ P2) ++ [q]) [])
      by now apply nth_rot.
    split.
    - intros (w & W & HW & Hl & Hn & Hz & Hs & Hx & Hy).
      rewrite app_length in Hl. cbn [length] in Hl.
      destruct (split_mid w _ _ Hl) as (w1 & wq & w2 & -> & L1 & L2).
      exists ((w1 ++ w2) ++ [wq]), W. split; [exact HW|].
      split; [rewrite !app_length; cbn; lia|].
      split; [apply (proj2 (nonneg_nth_Forall _)), (proj1 (Forall_rot _ w1 wq w2)), (proj1 (nonneg_nth_Forall _)); exact Hn|].
      split; [rewrite <- L1, <- L2, <- nth_rot by (rewrite L1, L2; exact Hj); exact Hz|].
      split; [rewrite <- zsum_rot; exact Hs|].
      rewrite <- Ept. split.
      + intros c Hc. rewrite <- dot_rot by assumption. now apply Hx.
      + rewrite <- dot_rot by assumption. exact Hy.
    - intros (w & W & HW & Hl & Hn & Hz & Hs & Hx & Hy).
      assert (Hl' : length w = (length P1 + length P2 + 1)%nat) by (rewrite Hl, !app_length; cbn; lia).
      destruct (split_end w _ _ Hl') as (w1 & w2 & wq & -> & L1 & L2).
      exists (w1 ++ wq :: w2), W. split; [exact HW|].
      split; [rewrite !app_length; cbn; lia|].
      split; [apply (proj2 (nonneg_nth_Forall _)), (proj2 (Forall_rot _ w1 wq w2)), (proj1 (nonneg_nth_Forall _)); exact Hn|].
      split; [rewrite <- L1, <- L2, <- nth_rot in Hz by (rewrite L1, L2; exact Hj); exact Hz|].
      split; [rewrite zsum_rot; exact Hs|].
      rewrite Ept. split.
      + intros c Hc. rewrite dot_rot by assumption. now apply Hx.
      + rewrite dot_rot by assumption. exact Hy.
  Qed.

  Theorem inserted_point_not_lower :
    strictly_above d (P1 ++ P2) q -> below_combo d (P1 ++ q :: P2) (length P1).
  Proof.
    intros Ha. apply below_combo_rotate; [lia|].
    unfold rot_idx. rewrite Nat.ltb_irrefl, Nat.eqb_refl.
    replace (length P1 + length P2)%nat with (length (P1 ++ P2)) by apply app_length.
    now apply added_point_not_lower.
  Qed.

  Theorem insert_above_invariant i :
    (i < length (P1 ++ P2))%nat -> strictly_above d (P1 ++ P2) q ->
    (below_combo d (P1 ++ q :: P2) (shift_idx (length P1) i) <-> below_combo d (P1 ++ P2) i).
  Proof.
    intros Hi Ha. rewrite app_length in Hi.
    rewrite below_combo_rotate by (unfold shift_idx; destruct (Nat.ltb i (length P1)); lia).
    assert (E : rot_idx (length P1) (length P2) (shift_idx (length P1) i) = i).
    { unfold rot_idx, shift_idx. destruct (Nat.ltb i (length P1)) eqn:L.
      - now rewrite L.
      - apply Nat.ltb_ge in L.
        replace (Nat.ltb (S i) (length P1)) with false by (symmetry; apply Nat.ltb_ge; lia).
        replace (Nat.eqb (S i) (length P1)) with false by (symmetry; apply Nat.eqb_neq; lia). lia. }
    rewrite E. apply add_above_invariant; [rewrite app_length; lia|exact Ha].
  Qed.
End Rotate.

Lemma nth_map_mul s : forall (l : list Z) k, nth k (map (Z.mul s) l) 0 = s * nth k l 0.
Proof. induction l as [|a l IH]; intros [|k]; cbn; try lia. apply IH. Qed.

Lemma col_zpscale_0 s P : col (zpscale s P) 0 = col P 0.
Proof. unfold col, zpscale. rewrite map_map. reflexivity. Qed.

Lemma col_zpscale_S s P k : col (zpscale s P) (S k) = map (fun v => s * v + 0) (col P (S k)).
Proof.
  unfold col, zpscale. rewrite !map_map. apply map_ext. intros p. cbn [nth].
  rewrite nth_map_mul. rewrite <- nth_S_tl. lia.
Qed.

Theorem below_combo_pscale d s P i :
  s <> 0 -> (i < length P)%nat ->
  (below_combo d (zpscale s P) i <-> below_combo d P i).
Proof.
  intros Hs Hi. apply (below_combo_units d 1 0 s); try assumption; try lia.
  - apply map_length.
  - now rewrite col_zpscale_0, map_affine_id.
  - apply col_zpscale_S.
Qed.
