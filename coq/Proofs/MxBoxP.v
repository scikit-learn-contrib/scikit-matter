(* Lemmas about Model/MxBox.v: reading a stored matrix at its own shape returns it. *)
From mathcomp Require Import all_ssreflect all_algebra.
From Verif Require Import MxBox.
Set Implicit Arguments.
Unset Strict Implicit.
Unset Printing Implicit Defensive.
Import GRing.Theory.
Local Open Scope ring_scope.

Section BoxP.
  Variable F : rcfType.

  Lemma inj_mxE (a b : nat) (A : 'M[F]_(a, b)) : inj_mx a b A = A.
  Proof.
    rewrite /inj_mx; case: eqP => // e1; case: eqP => // e2.
    by rewrite (eq_axiomK e1) (eq_axiomK e2) castmx_id.
  Qed.

  Lemma unbox_box (a b : nat) (A : 'M[F]_(a, b)) : unbox a b (box A) = A.
  Proof. by rewrite /unbox /= inj_mxE. Qed.
End BoxP.
