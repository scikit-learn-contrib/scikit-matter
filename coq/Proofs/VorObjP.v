(* C06, object level: the object-level model of VoronoiFPS (Model/VorObj.v) computes
   what the data-level model (Model/Voronoi.v) computes, hence what plain FPS computes —
   whatever an earlier use of the same object left in its attributes. *)
From Verif Require Import ListX Greedy FPS Voronoi VorCalib VorObj ListXP GreedyP
  VoronoiP SimP C02Thm C06Thm.

Lemma map_const_len {A B C} (c : C) (a : list A) (b : list B) :
  length a = length b -> map (fun _ => c) a = map (fun _ => c) b.
Proof.
  revert b; induction a as [|x a IH]; intros [|y b] H; cbn in *; try discriminate; [reflexivity|].
  f_equal. apply IH. lia.
Qed.

Lemma map2_ext_Forall {A B C} (P : A -> Prop) (f g : A -> B -> C) l m :
  Forall P l -> (forall a b, P a -> f a b = g a b) -> map2 f l m = map2 g l m.
Proof.
  intros HF Hfg. revert m; induction HF as [|a l Ha HF IH]; intros [|b m]; cbn; try reflexivity.
  now rewrite (Hfg a b Ha), IH.
Qed.

Lemma count_true_const {A} (l : list A) : count_true (map (fun _ => true) l) = length l.
Proof. unfold count_true. induction l as [|a l IH]; cbn; [reflexivity|now rewrite IH]. Qed.

Lemma write_prefix_length new old :
  (length new <= length old)%nat -> length (write_prefix new old) = length old.
Proof. intros H. unfold write_prefix. rewrite app_length, skipn_length. lia. Qed.

Lemma best_new_keeps {S} (score : S -> list Z) t (g : gst S) :
  sst (snd (best_new S score t g)) = sst g /\ sel (snd (best_new S score t g)) = sel g.
Proof.
  destruct (best_new S score t g) as [o g'] eqn:E.
  destruct (best_new_same S score t g o g' E) as (A & _ & _ & B). now split.
Qed.

Lemma run_sel_len {S} (score : S -> list Z) upd cand ycand t k : forall g,
  (length (sel (fst (run S score upd cand ycand t k g))) <= length (sel g) + k)%nat.
Proof.
  induction k as [|k IH]; intros g; cbn; [lia|].
  destruct (best_new_keeps score t g) as (_ & Kl).
  destruct (best_new S score t g) as [[i|] g']; cbn in *; rewrite <- Kl; [|lia].
  specialize (IH (post S upd cand ycand g' i)). cbn [post sel] in IH.
  rewrite app_length in IH. cbn [length] in IH. lia.
Qed.

Section ObjP.
  Variable X : list (list Z).
  Variable d : nat.
  Hypothesis Hdim : dims d X.
  Notation n := (length X).

  (* the attributes of the object agree with the data-level state [v] on data X *)
  Definition OR (o : ost) (v : vst) (sl : list nat) : Prop :=
    VInv X v sl /\ o_norms o = fps_norms X /\ o_xs o = map (fun i => nth i X []) sl /\
    o_sel o = sl /\ o_haus o = v_haus v /\ o_hsel o = v_hsel v /\ o_vloc o = v_vloc v.

  Lemma OR_vloc o v sl : OR o v sl -> sl <> [] -> Forall (fun c => (c < length sl)%nat) (o_vloc o).
  Proof.
    intros (HV & _ & _ & _ & _ & _ & Hvl) Hne. rewrite Hvl.
    destruct HV as (_ & _ & _ & _ & Hl3 & _ & Hc).
    apply Forall_nth. intros j d0 Hj. rewrite Hl3 in Hj. rewrite (nth_indep _ d0 O) by now rewrite Hl3. now destruct (Hc Hne j Hj).
  Qed.

  Lemma dslnew_eq o v sl l : OR o v sl -> o_dslnew X o l = dSL4 X v l.
  Proof.
    intros (HV & Hn & Hx & Hs & _). destruct HV as (Hvs & _).
    unfold o_dslnew, dSL4. rewrite Hn, Hx, Hs, Hvs, map2_map_r, map2_same.
    apply map_ext. intros k. unfold d2. now rewrite (dot_comm (nth k X []) (nth l X [])).
  Qed.

  Lemma active_eq o v sl l : OR o v sl -> o_active X o l = active X v l.
  Proof.
    intros H. pose proof H as (HV & Hn & Hx & Hs & Hh & Hhs & Hvl).
    pose proof HV as (Hvs & _ & Hl1 & _).
    unfold o_active, active, o_buf. rewrite Hs, Hvs.
    destruct sl as [|a sl'] eqn:Esl.
    - apply map_const_len. now rewrite seq_length, Hl1.
    - rewrite <- Esl in *. rewrite <- Hh, <- Hvl.
      apply (map2_ext_Forall (fun c => (c < length sl)%nat)).
      + apply (OR_vloc o v sl H). rewrite Esl. discriminate.
      + intros c h Hc. destruct h as [hz|]; [|reflexivity].
        unfold write_prefix. rewrite (dslnew_eq o v sl l H).
        rewrite app_nth1; [reflexivity|]. unfold dSL4. now rewrite map_length, Hvs.
  Qed.

  Lemma onew_eq o v sl l act full : OR o v sl -> onew X o l act full = vnew X v l act full.
  Proof.
    intros (_ & Hn & _ & _ & Hh & _). unfold onew, vnew, o_d2, d2. now rewrite Hn, Hh.
  Qed.

  Variable br : nat -> nat -> bool.

  (* one call of _update_post_selection on the object = one step of the data-level model *)
  Theorem oupd_sim o v sl i :
    OR o v sl -> (i < n)%nat -> OR (oupd X br o i) (vupd X br v i) (sl ++ [i]).
  Proof using Hdim.
    intros H Hi. pose proof H as (HV & Hn & Hx & Hs & Hh & Hhs & Hvl).
    pose proof HV as (Hvs & _).
    destruct (vupd_inv X d Hdim br v sl i HV Hi) as (HV' & _ & _).
    split; [exact HV'|].
    (* both step functions unfolded once, on the side *)
    remember (oupd X br o i) as o' eqn:Eo. remember (vupd X br v i) as v' eqn:Ev.
    unfold oupd in Eo. unfold vupd in Ev. rewrite (active_eq o v sl i H), Hs in Eo. rewrite Hvs in Ev.
    destruct (Nat.eqb (count_true (active X v i)) 0); subst o' v';
      cbn [o_norms o_xs o_sel o_haus o_hsel o_vloc v_haus v_hsel v_vloc];
      rewrite ?(onew_eq o v sl i _ _ H), Hx, Hh, Hhs, Hvl, map_app; auto 7.
  Qed.

  (* no numpy shape / index error, and the dSL_ buffer keeps its capacity *)
  Lemma oupd_ok o v sl i :
    OR o v sl -> (i < n)%nat -> o_ok o = true -> (length sl <= length (o_dsl o))%nat ->
    o_ok (oupd X br o i) = true /\ length (o_dsl (oupd X br o i)) = length (o_dsl o).
  Proof using.
    intros H Hi Hok Hcap. pose proof H as ((Hvs & _) & Hn & _ & Hs & _).
    assert (Hbuf : length (o_buf X o i) = length (o_dsl o)).
    { unfold o_buf. destruct (o_sel o); [reflexivity|]. apply write_prefix_length.
      rewrite (dslnew_eq o v sl i H). unfold dSL4. now rewrite map_length, Hvs. }
    assert (Hstep : o_step_ok X o i = true).
    { unfold o_step_ok. rewrite (proj2 (Nat.ltb_lt _ _) Hi), Hn, Hbuf, Hs. unfold fps_norms.
      rewrite map_length, Nat.eqb_refl, (proj2 (Nat.leb_le _ _) Hcap). cbn [andb].
      destruct sl as [|a sl'] eqn:E; [reflexivity|]. rewrite <- E in *.
      apply forallb_forall. intros c Hc. apply Nat.ltb_lt.
      assert (Hne : sl <> []) by (rewrite E; discriminate).
      pose proof (proj1 (Forall_forall _ _) (OR_vloc o v sl H Hne) c Hc) as Hlt. cbv beta in Hlt. lia. }
    unfold oupd. rewrite Hok, Hstep.
    destruct (Nat.eqb (count_true (o_active X o i)) 0); cbn [o_ok o_dsl]; split; auto.
  Qed.

  Definition ORF (o : ost) (f : dst) (sl : list nat) : Prop :=
    exists v, OR o v sl /\ VR X v f sl.

  Lemma ORF_score o f sl : ORF o f sl -> oscore o = dscore f.
  Proof.
    intros (v & (_ & _ & _ & _ & Hh & _) & HR). unfold oscore. rewrite Hh.
    exact (VR_score X v f sl HR).
  Qed.

  Lemma ORF_len o f sl : ORF o f sl -> length (oscore o) = n.
  Proof.
    intros (v & (_ & _ & _ & _ & Hh & _) & HR). unfold oscore. rewrite Hh.
    exact (VR_len X v f sl HR).
  Qed.

  Lemma ORF_upd o f sl i :
    ORF o f sl -> (i < n)%nat ->
    ORF (oupd X br o i) (dupd (fps_norms X) (fps_cross X) f i) (sl ++ [i]).
  Proof.
    intros (v & HO & HR) Hi. exists (vupd X br v i). split.
    - now apply oupd_sim.
    - exact (VR_upd X d Hdim br v f sl i HR Hi).
  Qed.

  Variable ycand : option (list (list Z)).
  Notation gs := (gsim ost dst ORF).

  Lemma cold_ORF prev k : ORF (ost_cold X prev k) (dst0 n) [].
  Proof.
    exists (vst0 X). split; [|exact (VR_init X)].
    destruct (VR_init X) as (HV & _). split; [exact HV|].
    unfold ost_cold, vst0. cbn. repeat split; reflexivity.
  Qed.

  Lemma obj_cold_sim prev i0 k : (i0 < n)%nat ->
    gs (obj_cold X br ycand prev i0 k) (fps_init X ycand [i0]).
  Proof.
    intros Hi. unfold obj_cold, obj_post, fps_init. cbn [fold_left].
    apply (post_sim ost dst (oupd X br) (dupd (fps_norms X) (fps_cross X)) X ycand ORF ORF_upd);
      [|exact Hi].
    unfold gsim; cbn. repeat split; auto. apply cold_ORF.
  Qed.

  Lemma obj_run_sim t k g1 g2 :
    gs g1 g2 ->
    gs (fst (obj_run X br ycand t k g1)) (fst (fps_run X ycand t k g2)) /\
    snd (obj_run X br ycand t k g1) = snd (fps_run X ycand t k g2).
  Proof.
    exact (run_sim_len ost dst oscore dscore (oupd X br) (dupd (fps_norms X) (fps_cross X)) X ycand
                       ORF ORF_score ORF_len ORF_upd t k g1 g2).
  Qed.

  Lemma ogs_outputs g1 g2 :
    gs g1 g2 ->
    sel g1 = sel g2 /\ xsel g1 = xsel g2 /\ ysel g1 = ysel g2 /\
    o_haus (sst g1) = haus (sst g2) /\ obj_select_distance g1 = select_distance g2 /\
    o_norms (sst g1) = fps_norms X /\ o_sel (sst g1) = sel g1 /\
    o_xs (sst g1) = map (fun i => nth i X []) (sel g1) /\
    (exists v, OR (sst g1) v (sel g1)).
  Proof.
    intros (A & B & Cc & D & (v & HO & HR)).
    pose proof HO as (HV & Hn & Hx & Hs & Hh & Hhs & Hvl). destruct HR as (_ & Hfh & Hfs).
    repeat split; auto.
    - now rewrite Hh, Hfh.
    - unfold obj_select_distance, select_distance. now rewrite A, Hhs, Hfs.
    - exists v. exact HO.
  Qed.

  (* cold fit on an object with ANY past = plain FPS on the data of this call *)
  Theorem obj_cold_equals_fps prev i0 t k :
    (i0 < n)%nat ->
    let rv := obj_fit_cold X br ycand prev i0 t k in
    let rf := fps_fit X ycand [i0] t k in
    gs (fst rv) (fst rf) /\ snd rv = snd rf.
  Proof using Hdim.
    intros Hi rv rf. subst rv rf. unfold obj_fit_cold, fps_fit.
    apply obj_run_sim. now apply obj_cold_sim.
  Qed.

  (* np.pad touches dSL_ only, which the relation does not read *)
  Lemma warm_sim g1 g2 k :
    gs g1 g2 -> gs (mk_gst (sel g1) (xsel g1) (ysel g1) (ost_warm k (sst g1)) (first g1)) g2.
  Proof.
    intros (A & B & Cc & D & (v & (HV & HO) & HR)). unfold gsim; cbn. repeat split; auto.
    exists v. split; [split; [exact HV|exact HO]|exact HR].
  Qed.

  Theorem obj_warm_equals_fps g1 g2 t k :
    gs g1 g2 ->
    gs (fst (obj_fit_warm X br ycand g1 t k)) (fst (fps_run X ycand t k g2)) /\
    snd (obj_fit_warm X br ycand g1 t k) = snd (fps_run X ycand t k g2).
  Proof.
    intros H. apply obj_run_sim, warm_sim, H.
  Qed.

  (* the loop never overflows the dSL_ buffer nor raises:
     "no error so far, dSL_ still has capacity c" rides along the simulation for as long as the
     selections fit into c; one more step then cannot overrun (oupd_ok). *)
  Definition ORFc (c : nat) (o : ost) (f : dst) (sl : list nat) : Prop :=
    ORF o f sl /\ ((length sl <= c)%nat -> o_ok o = true /\ length (o_dsl o) = c).

  Lemma ORFc_upd c o f sl i :
    ORFc c o f sl -> (i < n)%nat ->
    ORFc c (oupd X br o i) (dupd (fps_norms X) (fps_cross X) f i) (sl ++ [i]).
  Proof.
    intros [H Hc] Hi. split; [now apply ORF_upd|]. rewrite app_length. cbn [length]. intros Hl.
    destruct Hc as [Hok Hcap]; [lia|]. destruct H as (v & HO & _).
    destruct (oupd_ok o v sl i HO Hi Hok) as [A B]; [lia|]. split; [exact A|congruence].
  Qed.

  Lemma run_ok t k g1 g2 :
    gs g1 g2 -> o_ok (sst g1) = true ->
    (length (sel g1) + k <= length (o_dsl (sst g1)))%nat ->
    let g' := fst (run ost oscore (oupd X br) X ycand t k g1) in
    o_ok (sst g') = true /\ length (o_dsl (sst g')) = length (o_dsl (sst g1)) /\
    (length (sel g') <= length (sel g1) + k)%nat.
  Proof.
    intros (A & B & Cc & D & E) Hok Hcap g'.
    pose proof (run_sel_len oscore (oupd X br) X ycand t k g1) as Hl. fold g' in Hl.
    assert (Hs : gsim ost dst (ORFc (length (o_dsl (sst g1)))) g1 g2) by (repeat split; auto).
    apply (run_sim ost dst oscore dscore (oupd X br) (dupd (fps_norms X) (fps_cross X)) X ycand (ORFc _)
             (fun o f sl H => ORF_score o f sl (proj1 H)) (fun o f sl H => ORF_len o f sl (proj1 H))
             (ORFc_upd _) t k) in Hs.
    destruct Hs as ((_ & _ & _ & _ & _ & Hc) & _). fold g' in Hc. destruct Hc as [I1 I2]; [lia|auto].
  Qed.

  (* the first two conjuncts of run_ok on their own *)
  Lemma obj_loop_ok t k : forall g1 g2,
    gs g1 g2 -> o_ok (sst g1) = true ->
    (length (sel g1) + k <= length (o_dsl (sst g1)))%nat ->
    let g' := fst (run ost oscore (oupd X br) X ycand t k g1) in
    o_ok (sst g') = true /\ length (o_dsl (sst g')) = length (o_dsl (sst g1)).
  Proof using Hdim.
    intros g1 g2 H Hok Hcap. destruct (run_ok t k g1 g2 H Hok Hcap) as (A & B & _). exact (conj A B).
  Qed.

  Lemma obj_cold_eq prev i0 k :
    sel (obj_cold X br ycand prev i0 k) = [i0] /\
    sst (obj_cold X br ycand prev i0 k) = oupd X br (ost_cold X (option_map sst prev) k) i0.
  Proof. split; reflexivity. Qed.

  (* a fit leaves no error, the buffer at the requested capacity, and room for its selections *)
  Theorem obj_cold_no_error prev i0 t k :
    (i0 < n)%nat -> (1 <= k)%nat ->
    let g := fst (obj_fit_cold X br ycand prev i0 t k) in
    o_ok (sst g) = true /\ length (o_dsl (sst g)) = k /\ (length (sel g) <= k)%nat.
  Proof.
    intros Hi Hk g. subst g. unfold obj_fit_cold, obj_run.
    destruct (obj_cold_eq prev i0 k) as [Es Eo].
    destruct (cold_ORF (option_map sst prev) k) as (v & HO & _).
    destruct (oupd_ok _ v [] i0 HO Hi eq_refl) as (A & B); [cbn; lia|].
    cbn [ost_cold o_dsl] in B. rewrite repeat_length in B. rewrite <- Eo in A, B.
    destruct (run_ok t (k - 1) _ _ (obj_cold_sim prev i0 k Hi) A) as (I1 & I2 & I3);
      rewrite Es in *; cbn [length] in *; [lia|].
    split; [exact I1|]. split; [exact (eq_trans I2 B)|]. etransitivity; [exact I3|lia].
  Qed.

  Theorem obj_warm_no_error g1 g2 t k :
    gs g1 g2 -> o_ok (sst g1) = true -> (length (sel g1) <= length (o_dsl (sst g1)))%nat ->
    let g := fst (obj_fit_warm X br ycand g1 t k) in
    o_ok (sst g) = true /\ (k <= length (o_dsl (sst g)))%nat /\
    (length (sel g) <= length (o_dsl (sst g)))%nat.
  Proof.
    intros H Hok Hcap g. subst g. unfold obj_fit_warm, obj_run. cbn [sel].
    assert (Hos : o_sel (sst g1) = sel g1) by apply (ogs_outputs g1 g2 H).
    assert (Hw : length (o_dsl (ost_warm k (sst g1)))
                 = (length (o_dsl (sst g1)) + (k - length (sel g1)))%nat).
    { cbn [ost_warm o_dsl]. now rewrite app_length, repeat_length, Hos. }
    destruct (run_ok t (k - length (sel g1)) _ g2 (warm_sim g1 g2 k H) Hok) as (I1 & I2 & I3);
      cbn [sel sst] in *; [rewrite Hw; lia|].
    rewrite Hw in I2. split; [exact I1|]. set (g := fst _) in *. clearbody g. lia.
  Qed.

  (* new_dist_ is read only when no point is active (it is then kept); otherwise it is rewritten *)
  Lemma oupd_ignores_new a b c e f g h nw nw' ok i :
    count_true (o_active X (mk_ost a b c e f g h nw ok) i) <> O ->
    oupd X br (mk_ost a b c e f g h nw ok) i = oupd X br (mk_ost a b c e f g h nw' ok) i.
  Proof.
    intros H. unfold oupd.
    change (o_active X (mk_ost a b c e f g h nw' ok) i) with (o_active X (mk_ost a b c e f g h nw ok) i).
    destruct (Nat.eqb_spec (count_true (o_active X (mk_ost a b c e f g h nw ok) i)) 0);
      [contradiction|reflexivity].
  Qed.

  (* new_dist_ is the one attribute a cold fit does not reset: its first step, on which every
     point is active, rewrites it *)
  Theorem obj_cold_forgets prev1 prev2 i0 k :
    (0 < n)%nat -> obj_cold X br ycand prev1 i0 k = obj_cold X br ycand prev2 i0 k.
  Proof using.
    intros Hn. unfold obj_cold, obj_post, post. cbn [sel xsel ysel sst first]. f_equal.
    apply oupd_ignores_new. unfold o_active. cbn [o_sel]. rewrite count_true_const, seq_length. lia.
  Qed.
End ObjP.

(* an accepted cold fit forgets everything that happened on the object before *)
Theorem sess_cold_history_independent s1 s2 X br i0 p k :
  shape_ok X = true -> resolve_n (length X) p = Some k ->
  sess_step s1 (VCold X br i0 p) = sess_step s2 (VCold X br i0 p) \/
  (fst (sess_step s1 (VCold X br i0 p)) = None /\ fst (sess_step s2 (VCold X br i0 p)) = None).
Proof.
  intros Hsh Hr. unfold sess_step. rewrite Hsh, Hr. cbn [negb].
  destruct ((i0 <? length X)%nat && (1 <=? k)%nat) eqn:E; [left|right; auto].
  unfold obj_fit_cold. rewrite (obj_cold_forgets X br None s1 s2 i0 k); [reflexivity|].
  apply andb_prop in E as (E & _). apply Nat.ltb_lt in E. lia.
Qed.

(* the state a session is in after an accepted call, in terms of plain FPS *)
Definition sess_inv (X : list (list Z)) (s : option ogst) (g2 : fps_g) : Prop :=
  exists g, s = Some g /\ gsim ost dst (ORF X) g g2 /\ o_ok (sst g) = true /\
            (length (sel g) <= length (o_dsl (sst g)))%nat.

Theorem sess_cold_equals_fps s X d br i0 p k :
  dims d X -> shape_ok X = true -> resolve_n (length X) p = Some k ->
  (i0 < length X)%nat -> (1 <= k)%nat ->
  snd (sess_step s (VCold X br i0 p)) = true /\
  sess_inv X (fst (sess_step s (VCold X br i0 p))) (fst (fps_fit X None [i0] NoThr k)).
Proof.
  intros Hd Hsh Hr Hi Hk. unfold sess_step.
  rewrite Hsh, Hr, (proj2 (Nat.ltb_lt _ _) Hi), (proj2 (Nat.leb_le _ _) Hk). cbn [negb andb fst snd].
  split; [reflexivity|].
  destruct (obj_cold_equals_fps X d Hd br None s i0 NoThr k Hi) as (Hs & _).
  destruct (obj_cold_no_error X d Hd br None s i0 NoThr k Hi Hk) as (Hok & Hcap & Hl).
  eexists. split; [reflexivity|]. split; [exact Hs|]. split; [exact Hok|now rewrite Hcap].
Qed.

Theorem sess_warm_equals_fps s g2 X d br p k :
  dims d X -> shape_ok X = true -> resolve_n (length X) p = Some k ->
  sess_inv X s g2 -> (length (sel g2) <= k)%nat ->
  snd (sess_step s (VWarm X br p)) = true /\
  sess_inv X (fst (sess_step s (VWarm X br p))) (fst (fps_run X None NoThr k g2)).
Proof.
  intros Hd Hsh Hr (g & -> & Hs & Hok & Hcap) Hk. unfold sess_step.
  rewrite Hsh, Hr, (proj2 (Nat.ltb_ge _ _)) by (rewrite (proj1 Hs); exact Hk). cbn [negb fst snd].
  split; [reflexivity|].
  destruct (obj_warm_equals_fps X d Hd br None g g2 NoThr k Hs) as (Hs' & _).
  destruct (obj_warm_no_error X d Hd br None g g2 NoThr k Hs Hok Hcap) as (Hok' & _ & Hl).
  eexists. split; [reflexivity|]. split; [exact Hs'|]. split; [exact Hok'|exact Hl].
Qed.

Lemma ff_check_None ff nt :
  ff_check ff nt = None <->
  match ff with
  | FFNone => exists z, nt = NTInt z /\ 1 <= z
  | FFReal num den => 0 < num <= den
  | FFOther => False end.
Proof.
  destruct ff as [|num den|]; cbn; [destruct nt as [z|]| |].
  - destruct (Z.leb_spec z 0); cbn; (split; [try discriminate|]).
    + intros (z' & E & Hz). injection E as <-. lia.
    + intros _; exists z; split; [reflexivity|lia].
    + reflexivity.
  - split; [discriminate|intros (z & E & _); discriminate].
  - destruct (Z.ltb_spec 0 num), (Z.leb_spec num den); cbn; split; try discriminate; try lia; reflexivity.
  - split; [discriminate|intros []].
Qed.

(* the cold fit accepts exactly the parameter region the property quantifies over *)
Theorem vor_validate_spec n p ff nt ini :
  (forall num den, ff = FFReal num den -> 0 < den) ->
  vor_validate n p ff nt ini = None <-> in_quantifier n p ff nt ini.
Proof.
  intros _. unfold vor_validate, in_quantifier.
  destruct (resolve_n n p) as [k|]; [|split; [discriminate|intros ((k & Hk & _) & _); discriminate]].
  destruct (ff_check_None ff nt) as [Hf Hb]. destruct (ff_check ff nt).
  { split; [discriminate|]. intros (_ & H & _). discriminate (Hb H). }
  specialize (Hf eq_refl).
  assert (Hk : forall Q : Prop, (exists k0, Some k = Some k0 /\ (1 <= k0)%nat) /\ Q -> (1 <= k)%nat).
  { intros Q ((k0 & E & H) & _). now injection E as <-. }
  destruct ini as [i| |].
  - destruct (Nat.ltb_spec i n), (Nat.leb_spec 1 k); cbn; (split; [try discriminate; eauto 6|try reflexivity]);
      intros H1; pose proof (Hk _ H1); destruct H1 as (_ & _ & H1); lia.
  - destruct (Nat.leb_spec 1 k); cbn; (split; [try discriminate; eauto 6|try reflexivity]).
    intros H1. pose proof (Hk _ H1). lia.
  - split; [discriminate|intros (_ & _ & [])].
Qed.

(* the value a timing calibration stores is accepted when the object is fitted again *)
Theorem calibrated_value_accepted outs nt :
  let '(k, v) := calibrate_stored outs in ff_check (FFReal v (2 ^ Z.of_nat k)) nt = None.
Proof.
  pose proof (calibrate_stored_range outs) as H. destruct (calibrate_stored outs) as [k v].
  destruct H as (-> & Hv). apply ff_check_None. change (2 ^ Z.of_nat 7) with 128. lia.
Qed.
