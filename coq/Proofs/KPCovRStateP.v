(* C05 — proofs about the KernelPCovR object state machine of Model/KPCovRState.v.
   Stdlib style.  Every statement holds for EVERY interpretation of the machine's primitive
   operations (kernel evaluation, KernelNormalizer, regression, _fit, loss, product). *)
From Coq Require Import List Bool.
From Verif Require Import KPCovRState.
Import ListNotations.

Section MachineP.
  Variables mat kid num rg cen : Type.
  Variable getk : kid -> mat -> mat -> mat.
  Variable kn_fit : mat -> cen.
  Variable kn_tr : cen -> mat -> mat.
  Variable kn_vv : cen -> mat -> mat -> mat.
  Variable regress : rg -> mat -> mat -> mat.
  Variable lstsq : num -> mat -> mat -> mat.
  Variable fit_core : num -> mat -> mat -> mat -> mat * mat.
  Variable loss : num -> mat -> mat -> mat -> mat -> mat -> mat -> mat.
  Variable mmul : mat -> mat -> mat.

  Notation cargs := (cargs kid num rg).
  Notation state := (state mat kid num rg cen).
  Notation fit := (@fit mat kid num rg cen getk kn_fit kn_tr regress lstsq fit_core mmul).
  Notation transform := (@transform mat kid num rg cen getk kn_tr mmul).
  Notation predict := (@predict mat kid num rg cen getk kn_tr mmul).
  Notation score := (@score mat kid num rg cen getk kn_tr kn_vv loss).
  Notation inverse_transform := (@inverse_transform mat kid num rg cen mmul).
  Notation run := (@run mat kid num rg cen getk kn_fit kn_tr regress lstsq fit_core mmul).
  Notation same_obs := (@same_obs mat kid num rg cen getk kn_tr kn_vv loss mmul).
  Notation init := (@init mat kid num rg cen).
  Notation set_params := (@set_params mat kid num rg cen).
  Notation transform_hasattr := (@transform_hasattr mat kid num rg cen getk kn_tr mmul).
  Notation SetParams := (@SetParams mat kid num rg).
  Notation Fit := (@Fit mat kid num rg).

  (* what the observables read: the constructor arguments, X_fit_, the four projectors, and
     centerer_ only under center=True; never ptx_ or regressor_ *)
  Lemma same_obs_fields (s1 s2 : state) :
    prm s1 = prm s2 -> X_fit s1 = X_fit s2 -> pkt s1 = pkt s2 -> pky s1 = pky s2 ->
    pty s1 = pty s2 -> ptk s1 = ptk s2 ->
    (p_center (prm s1) = true -> centerer s1 = centerer s2) -> same_obs s1 s2.
  Proof.
    destruct s1 as [p1 a1 c1 b1 d1 e1 f1 x1 w1], s2 as [p2 a2 c2 b2 d2 e2 f2 x2 w2];
      cbn [prm X_fit pkt pky pty ptk centerer]; intros -> -> -> -> -> -> Hc.
    unfold same_obs, KPCovRState.transform, KPCovRState.predict, KPCovRState.score, new_kernel.
    cbn [prm X_fit pkt pky pty ptk centerer].
    destruct (p_center p2); [rewrite Hc by reflexivity|]; repeat split; reflexivity.
  Qed.

  Definition with_leftovers (st : state) (c : option cen) (x w : option mat) : state :=
    mk_state (prm st) (X_fit st) c (pkt st) (pky st) (pty st) (ptk st) x w.

  Lemma leftovers_unobserved (st : state) (c : option cen) (x w : option mat) :
    (p_center (prm st) = true -> c = centerer st) -> same_obs (with_leftovers st c x w) st.
  Proof. intros Hc; apply same_obs_fields; try reflexivity; exact Hc. Qed.

  (* the guard: with center=False none of the three methods reads centerer_ *)
  Definition with_centerer (st : state) (c : option cen) : state :=
    mk_state (prm st) (X_fit st) c (pkt st) (pky st) (pty st) (ptk st) (ptx st) (regr_W st).

  Lemma center_guard (st : state) (c : option cen) :
    p_center (prm st) = false ->
    (forall Xn, transform (with_centerer st c) Xn = transform st Xn) /\
    (forall Xn, predict (with_centerer st c) Xn = predict st Xn) /\
    (forall Xn Yn, score (with_centerer st c) Xn Yn = score st Xn Yn).
  Proof.
    intros Hc; apply (leftovers_unobserved st c (ptx st) (regr_W st)).
    rewrite Hc; discriminate.
  Qed.

  Lemma fit_forgets (s1 s2 : state) (X Y : mat) (W : option mat) :
    prm s1 = prm s2 -> same_obs (fit s1 X Y W) (fit s2 X Y W).
  Proof.
    destruct s1 as [p1 a1 c1 b1 d1 e1 f1 x1 w1], s2 as [p2 a2 c2 b2 d2 e2 f2 x2 w2];
      cbn [prm]; intros ->.
    (* the fields are compared by conversion, without spelling out the body of fit *)
    apply same_obs_fields; try reflexivity.
    cbn [KPCovRState.fit prm centerer]; intros ->; reflexivity.
  Qed.

  Lemma same_obs_refl (s : state) : same_obs s s.
  Proof. unfold same_obs; repeat split; reflexivity. Qed.

  (* refit = fresh fit: whatever happened to the object before (any list of set_params / fit
     events, starting from any constructor arguments), after set_params(p); fit(X, Y, W) it is
     indistinguishable from a new object constructed with p and fitted once *)
  Theorem refit_is_fresh_fit (p0 p : cargs) (h : list (event mat kid num rg)) (X Y : mat) (W : option mat) :
    same_obs (run (init p0) (h ++ [SetParams p; Fit X Y W])) (fit (init p) X Y W).
  Proof.
    unfold KPCovRState.run. rewrite fold_left_app. cbn [fold_left step].
    apply fit_forgets. reflexivity.
  Qed.

  Theorem refit_same_args (st : state) (X Y : mat) (W : option mat) :
    same_obs (fit st X Y W) (fit (init (prm st)) X Y W).
  Proof. apply fit_forgets. reflexivity. Qed.

  (* the statement is not vacuous: the leftover attribute really is there *)
  Definition center_off (p : cargs) : cargs :=
    mk_cargs false (p_kernel p) (p_num p) (p_regr p) (p_inv p).

  Lemma stale_centerer_present (p : cargs) (X1 Y1 X2 Y2 : mat) (W1 W2 : option mat) :
    p_center p = true ->
    centerer (run (init p) [Fit X1 Y1 W1; SetParams (center_off p); Fit X2 Y2 W2])
    = Some (kn_fit (getk (p_kernel p) X1 X1)) /\
    centerer (fit (init (center_off p)) X2 Y2 W2) = None.
  Proof. intros Hc; cbn; rewrite Hc; split; reflexivity. Qed.

  (* keying the centring on hasattr(self, "centerer_") breaks it: after that history transform
     returns the kernel centred with the normaliser of the FIRST data set *)
  Lemma hasattr_guard_differs (p : cargs) (X1 Y1 X2 Y2 : mat) (W1 W2 : option mat) (Xn : mat) :
    p_center p = true ->
    let st := run (init p) [Fit X1 Y1 W1; SetParams (center_off p); Fit X2 Y2 W2] in
    let c1 := kn_fit (getk (p_kernel p) X1 X1) in
    exists P,
      pkt st = Some P /\
      transform st Xn = Val (mmul (getk (p_kernel p) Xn X2) P) /\
      transform_hasattr st Xn = Val (mmul (kn_tr c1 (getk (p_kernel p) Xn X2)) P).
  Proof.
    intros Hc; cbn.
    unfold KPCovRState.transform, KPCovRState.transform_hasattr, new_kernel, new_kernel_hasattr; cbn.
    rewrite Hc; cbn.
    eexists; repeat split; reflexivity.
  Qed.

  (* inverse_transform is NOT covered: ptx_ of an earlier fit survives a refit with
     fit_inverse_transform=False (outside the property; recorded as an observation) *)
  Definition inv_off (p : cargs) : cargs :=
    mk_cargs (p_center p) (p_kernel p) (p_num p) (p_regr p) false.
  Lemma stale_ptx_observable (p : cargs) (X1 Y1 X2 Y2 : mat) (W1 W2 : option mat) (T : mat) :
    p_inv p = true ->
    (exists P, inverse_transform (run (init p) [Fit X1 Y1 W1; SetParams (inv_off p); Fit X2 Y2 W2]) T
               = Val (mmul T (mmul P X1))) /\
    inverse_transform (fit (init (inv_off p)) X2 Y2 W2) T = AttrError.
  Proof.
    intros Hi; cbn. unfold KPCovRState.inverse_transform; cbn. rewrite Hi; cbn.
    split; [eexists; reflexivity | reflexivity].
  Qed.

  (* unfitted object, and center switched on without a refit *)
  Lemma unfitted_raises (p : cargs) (Xn Yn : mat) :
    transform (init p) Xn = NotFitted /\ predict (init p) Xn = NotFitted /\ score (init p) Xn Yn = NotFitted.
  Proof. repeat split; reflexivity. Qed.

  Definition center_on (p : cargs) : cargs :=
    mk_cargs true (p_kernel p) (p_num p) (p_regr p) (p_inv p).
  Lemma center_on_without_refit (p : cargs) (X Y : mat) (W : option mat) (Xn Yn : mat) :
    p_center p = false ->
    let st := set_params (fit (init p) X Y W) (center_on p) in
    transform st Xn = AttrError /\ predict st Xn = AttrError /\ score st Xn Yn = AttrError.
  Proof.
    intros Hc; cbn.
    unfold KPCovRState.transform, KPCovRState.predict, KPCovRState.score, new_kernel; cbn.
    rewrite Hc; cbn. repeat split; reflexivity.
  Qed.

  (* named kernel = the same kernel precomputed.
     [kpre] is the identifier of kernel="precomputed": _get_kernel returns its first argument.
     An object with a named kernel fitted on X and an object with kernel="precomputed" (all other
     constructor arguments equal) fitted on K = k(X, X) have the same fitted attributes; transform
     and predict of the first on Xn are those of the second on k(Xn, X); score on the training
     set coincides. *)
  Variable kpre : kid.
  Hypothesis getk_pre : forall A B, getk kpre A B = A.

  Definition as_precomputed (p : cargs) : cargs :=
    mk_cargs (p_center p) kpre (p_num p) (p_regr p) (p_inv p).

  Theorem named_is_precomputed (p : cargs) (X Y : mat) (W : option mat) :
    let K := getk (p_kernel p) X X in
    let s1 := fit (init p) X Y W in
    let s2 := fit (init (as_precomputed p)) K Y W in
    pkt s1 = pkt s2 /\ pky s1 = pky s2 /\ pty s1 = pty s2 /\ ptk s1 = ptk s2 /\
    centerer s1 = centerer s2 /\ regr_W s1 = regr_W s2 /\
    (forall Xn, transform s1 Xn = transform s2 (getk (p_kernel p) Xn X)) /\
    (forall Xn, predict s1 Xn = predict s2 (getk (p_kernel p) Xn X)) /\
    (forall Yn, score s1 X Yn = score s2 K Yn).
  Proof.
    intros K s1 s2.
    (* the second object differs only in X_fit_, the kernel name and ptx_; shown without
       spelling out the lets of fit, which are shared through the one rewritten kernel *)
    assert (E : s2 = mk_state (as_precomputed p) (Some K) (centerer s1) (pkt s1) (pky s1) (pty s1)
                       (ptk s1) (ptx s2) (regr_W s1)).
    { unfold s2, s1, KPCovRState.fit.
      cbn beta iota delta [init prm as_precomputed p_kernel p_center p_num p_regr p_inv].
      rewrite (getk_pre K K). reflexivity. }
    rewrite E.
    unfold KPCovRState.transform, KPCovRState.predict, KPCovRState.score, new_kernel.
    cbn beta iota delta [prm X_fit pkt pky pty ptk centerer regr_W as_precomputed p_kernel p_center].
    repeat split; try reflexivity; intros; rewrite ?getk_pre; reflexivity.
  Qed.

  (* center=True = explicit KernelNormalizer.
     An object with center=True fitted on X equals an object with center=False and
     kernel="precomputed" fitted on c.transform(K), c = KernelNormalizer().fit(K); new samples
     are passed as c.transform(k(Xn, X)). *)
  Definition as_normalized (p : cargs) : cargs :=
    mk_cargs false kpre (p_num p) (p_regr p) (p_inv p).

  Theorem center_is_explicit_normalizer (p : cargs) (X Y : mat) (W : option mat) :
    p_center p = true ->
    let K := getk (p_kernel p) X X in
    let c := kn_fit K in
    let s1 := fit (init p) X Y W in
    let s3 := fit (init (as_normalized p)) (kn_tr c K) Y W in
    pkt s1 = pkt s3 /\ pky s1 = pky s3 /\ pty s1 = pty s3 /\ ptk s1 = ptk s3 /\
    (forall Xn, transform s1 Xn = transform s3 (kn_tr c (getk (p_kernel p) Xn X))) /\
    (forall Xn, predict s1 Xn = predict s3 (kn_tr c (getk (p_kernel p) Xn X))).
  Proof.
    intros Hc K c s1 s3.
    assert (E : s3 = mk_state (as_normalized p) (Some (kn_tr c K)) None (pkt s1) (pky s1) (pty s1)
                       (ptk s1) (ptx s3) (regr_W s1)).
    { unfold s3, s1, KPCovRState.fit.
      cbn beta iota delta [init prm as_normalized p_kernel p_center p_num p_regr p_inv centerer].
      rewrite (getk_pre (kn_tr c K) (kn_tr c K)), Hc. reflexivity. }
    rewrite E.
    unfold KPCovRState.transform, KPCovRState.predict, new_kernel.
    cbn beta iota delta [prm X_fit pkt pky pty centerer as_normalized p_kernel p_center].
    repeat split; try reflexivity; intros; rewrite getk_pre;
      unfold s1; cbn [KPCovRState.fit init prm X_fit centerer]; rewrite Hc; reflexivity.
  Qed.
End MachineP.

(* a concrete machine (numbers for matrices) showing that the hypotheses are satisfiable and
   that the stale attribute changes the hasattr variant's answer *)
Section Tiny.
  Let mat := nat. Let kid := bool. Let num := unit. Let rg := unit. Let cen := nat.
  Definition t_getk (k : kid) (A B : mat) : mat := if k then A else A * B + 1.
  Definition t_fit (K : mat) : cen := K.
  Definition t_tr (c : cen) (M : mat) : mat := M + c.
  Definition t_vv (c : cen) (A B : mat) : mat := A + B + c.
  Definition t_regress (_ : rg) (K Y : mat) : mat := K + Y.
  Definition t_lstsq (_ : num) (K Y : mat) : mat := K + 2 * Y.
  Definition t_core (_ : num) (K Yh W : mat) : mat * mat := (K + Yh, W + 1).
  Definition t_loss (_ : num) (a b c d e f : mat) : mat := a + b + c + d + e + f.
  Definition t_p : cargs kid num rg := mk_cargs true false tt (RegFit tt) false.

  Lemma tiny_pre : forall A B, t_getk true A B = A.
  Proof. reflexivity. Qed.

  Definition t_run := @run nat bool unit unit nat t_getk t_fit t_tr t_regress t_lstsq t_core Nat.mul.
  Definition t_fit1 := @fit nat bool unit unit nat t_getk t_fit t_tr t_regress t_lstsq t_core Nat.mul.
  Definition t_transform := @transform nat bool unit unit nat t_getk t_tr Nat.mul.
  Definition t_transform_hasattr := @transform_hasattr nat bool unit unit nat t_getk t_tr Nat.mul.
  Definition t_init := @init nat bool unit unit nat.

  Lemma tiny_hasattr_differs :
    let st := t_run (t_init t_p)
                  [@KPCovRState.Fit nat bool unit unit 2 3 None;
                   @KPCovRState.SetParams nat bool unit unit (@center_off _ _ _ t_p);
                   @KPCovRState.Fit nat bool unit unit 4 5 None] in
    t_transform st 7 <> t_transform_hasattr st 7 /\
    t_transform st 7 = t_transform (t_fit1 (t_init (@center_off _ _ _ t_p)) 4 5 None) 7.
  Proof.
    intros st; split.
    - (* the two answers are a * P and (a + c1) * P with the same non-zero P *)
      destruct (hasattr_guard_differs mat kid num rg cen t_getk t_fit t_tr t_regress t_lstsq t_core
                  Nat.mul t_p 2 3 4 5 None None 7 eq_refl) as (P & HP & H1 & H2).
      injection HP as <-; intros H.
      assert (H' := f_equal (fun r => match r with Val a => a | _ => 0 end)
                           (eq_trans (eq_sym H1) (eq_trans H H2))); cbv beta iota in H'.
      apply PeanoNat.Nat.mul_cancel_r in H'; [|vm_compute; discriminate].
      vm_compute in H'; discriminate H'.
    - (* same_obs, seventh component: transform agrees on every input *)
      exact (proj1 (proj2 (proj2 (proj2 (proj2 (proj2 (proj2
        (fit_forgets mat kid num rg cen t_getk t_fit t_tr t_vv t_regress t_lstsq t_core t_loss Nat.mul
           (set_params (t_fit1 (t_init t_p) 2 3 None) (@center_off _ _ _ t_p)) (t_init (@center_off _ _ _ t_p))
           4 5 None eq_refl))))))) 7).
  Qed.
End Tiny.
