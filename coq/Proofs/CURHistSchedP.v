(* C07, layer D, histories: every selection of every fit of a history (cold fit, then warm starts
   with recompute_every changed in between) is the first maximiser, among the items not yet
   selected, of the refresh vector in force under the schedule of Model/CURHistSched.v.
   Stdlib style; each fit is one [stage_nothr] of Proofs/CURSchedP.v. *)
From Verif Require Import ListX Greedy CURSched CURSchedP CURHistSched.

Lemma idx_after_le re m c k : (idx_after re m c k <= c + k)%nat.
Proof.
  revert m c; induction k as [|k IH]; intros m c; cbn [idx_after]; [lia|].
  destruct (refresh_due re (S m)); [specialize (IH (S m) (S c))|specialize (IH (S m) c)]; lia.
Qed.

Lemma hw_last_ge m c sts : (c <= hw_last m c sts)%nat.
Proof.
  revert m c; induction sts as [|[re k] sts IH]; intros m c; cbn [hw_last]; [lia|].
  specialize (IH (m + (k - m))%nat (idx_after re m (S c) (k - m))).
  pose proof (idx_after_ge re m (S c) (k - m)). lia.
Qed.

Section Hist.
  Variable cand : list (list Z).
  Variable R : list (list Z).
  Let n := length cand.

  (* A history from a state that a cold or warm start has put on vector c: the loop of s steps of
     the current fit, then the remaining fits.  Both h_idx and hw_idx unfold to the list below. *)
  Lemma hist_from : forall sts re s g c acc g' tr,
    let m := length (sel g) in
    let c2 := idx_after re m c s in
    let idxs := idx_steps re m c s ++ hw_idx (m + s) c2 sts in
    on_vec cand R c g ->
    (m + s <= n)%nat -> stages_ok n (m + s) sts ->
    (hw_last (m + s) c2 sts < length R)%nat ->
    h_chain cand (fst (c_run re cand NoThr s g)) sts acc = (g', tr) ->
    exists new, sel g' = sel g ++ new /\ length new = length idxs /\
      c_ok (sst g') = c_ok (sst g) /\
      c_rest (sst g') = skipn (S (hw_last (m + s) c2 sts)) R /\
      sel_ok n R (sel g) idxs new.
  Proof.
    induction sts as [|[re' k'] sts IH]; intros re s g c acc g' tr m c2 idxs Hv Hs Hso Hen H; subst idxs;
      destruct (c_run re cand NoThr s g) as [g2 st] eqn:Erun; cbn [fst] in H.
    - destruct (stage_nothr re cand R c s g g2 st Hv Hs Hen Erun) as (new & Hnew & Hl & Hbest & Hv2 & Hok2).
      injection H as <- _. exists new. cbn [hw_idx hw_last]. rewrite app_nil_r, idx_steps_length.
      split; [exact Hnew|]. split; [exact Hl|]. split; [exact Hok2|]. split; [apply Hv2|exact Hbest].
    - cbn [h_chain hw_idx hw_last stages_ok] in *. destruct Hso as (Hmk & Hkn & Hso).
      set (s' := (k' - (m + s))%nat) in *.
      pose proof (hw_last_ge (m + s + s') (idx_after re' (m + s) (S c2) s') sts) as Hge.
      pose proof (idx_after_ge re' (m + s) (S c2) s') as Hge2.
      destruct (stage_nothr re cand R c s g g2 st Hv Hs ltac:(fold m c2; lia) Erun)
        as (new & Hnew & Hl & Hbest & Hv2 & Hok2). fold m c2 in Hbest, Hv2.
      assert (Hlen2 : length (sel g2) = (m + s)%nat) by (rewrite Hnew, app_length; fold m; lia).
      destruct (on_vec_next cand R c2 g2 Hv2 ltac:(lia)) as [Hvw Hokw].
      change (sel (g_warm g2)) with (sel g2) in H. rewrite Hlen2 in H. fold s' in H.
      specialize (IH re' s' (g_warm g2) (S c2) (acc ++ c_trace re' cand NoThr s' (g_warm g2)) g' tr Hvw).
      cbn [g_warm sel] in IH. rewrite Hlen2 in IH.
      destruct (IH ltac:(fold n; lia) ltac:(now replace (m + s + s')%nat with k' by lia) Hen H)
        as (new' & Hnew' & Hlen' & Hok' & Hrest' & Hbest').
      exists (new ++ new').
      split; [now rewrite Hnew', Hnew, app_assoc|].
      split; [now rewrite (app_length new), (app_length (idx_steps re m c s)), Hlen', Hl, idx_steps_length|].
      split; [now rewrite Hok', Hokw|].
      split; [exact Hrest'|].
      apply sel_ok_app; [now rewrite idx_steps_length|exact Hbest|now rewrite <- Hnew].
  Qed.

  (* a whole history: the cold start puts the state on vector 0 *)
  Theorem history_argmax (sts : list (nat * nat)) g' tr :
    Forall (fun r => length r = n) R ->
    sts <> [] -> stages_ok n 0 sts ->
    (h_last sts < length R)%nat ->
    h_fit cand R sts = (g', tr) ->
    length (sel g') = length (h_idx sts) /\
    c_ok (sst g') = true /\
    c_rest (sst g') = skipn (S (h_last sts)) R /\
    sel_ok n R [] (h_idx sts) (sel g').
  Proof.
    intros HR Hne Hso Hen H.
    destruct sts as [|[re k] sts]; [contradiction|]. clear Hne.
    cbn [h_fit h_idx h_last stages_ok] in *. destruct Hso as (_ & Hkn & Hso).
    pose proof (hw_last_ge k (idx_after re 0 0 k) sts) as Hge.
    destruct (on_vec_cold cand R HR ltac:(lia)) as [Hv Hok].
    destruct (hist_from sts re k (g_cold R) 0 _ g' tr Hv Hkn Hso Hen H)
      as (new & Hnew & Hlen & Hok' & Hrest & Hbest).
    cbn [g_cold sel app length Nat.add] in *.
    rewrite Hnew. split; [exact Hlen|]. split; [now rewrite Hok'|]. split; [exact Hrest|exact Hbest].
  Qed.
End Hist.
