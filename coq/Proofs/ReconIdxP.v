(* Index bookkeeping of check_global/local_reconstruction_measures_input (stdlib style):
   Model/ReconExt.v [complement], [resolve_idx], [eff_k], the guards. *)
From Coq Require Import List Arith Bool Lia Sorted.
From Verif Require Import Recon ReconExt.
Import ListNotations.

Lemma memb_In : forall i l, memb i l = true <-> In i l.
Proof.
  intros i l. unfold memb. rewrite existsb_exists. split.
  - intros [x [Hx He]]. apply Nat.eqb_eq in He. now subst x.
  - intros Hi. exists i. split; [exact Hi | apply Nat.eqb_refl].
Qed.

(* np.setdiff1d(np.arange(n), idx) contains exactly the positions below n that idx omits ... *)
Lemma complement_In : forall n idx i, In i (complement n idx) <-> (i < n /\ ~ In i idx).
Proof.
  intros n idx i. unfold complement. rewrite filter_In, in_seq, negb_true_iff.
  rewrite <- memb_In. split.
  - intros [[_ Hi] Hm]. split; [cbn in Hi; exact Hi | now rewrite Hm].
  - intros [Hi Hm]. split; [cbn; lia | now destruct (memb i idx)].
Qed.

Lemma seq_ssorted : forall n a, StronglySorted lt (seq a n).
Proof.
  induction n as [|n IH]; intros a; cbn [seq]; constructor.
  - apply IH.
  - apply Forall_forall. intros x Hx. apply in_seq in Hx. lia.
Qed.

Lemma filter_ssorted : forall (f : nat -> bool) l,
  StronglySorted lt l -> StronglySorted lt (filter f l).
Proof.
  intros f l H. induction H as [|a l Hs IH Hf]; cbn [filter]; [constructor|].
  destruct (f a); [|exact IH]. constructor; [exact IH|].
  apply Forall_forall. intros x Hx. apply filter_In in Hx. destruct Hx as [Hx _].
  rewrite Forall_forall in Hf. now apply Hf.
Qed.

(* ... in increasing order, hence without repetition *)
Lemma complement_sorted : forall n idx, StronglySorted lt (complement n idx).
Proof. intros n idx. unfold complement. apply filter_ssorted, seq_ssorted. Qed.

Lemma complement_NoDup : forall n idx, NoDup (complement n idx).
Proof. intros n idx. unfold complement. apply NoDup_filter, seq_NoDup. Qed.

Lemma complement_length : forall n idx, length (complement n idx) <= n.
Proof.
  intros n idx. unfold complement. rewrite <- (seq_length n 0) at 2.
  generalize (seq 0 n). intros l. induction l as [|a l IH]; cbn [filter length]; [lia|].
  destruct (negb (memb a idx)); cbn [length]; lia.
Qed.

(* the index resolution of check_global_reconstruction_measures_input, all four branches *)
Theorem resolve_idx_spec : forall n train test dflt,
  let res := resolve_idx n train test dflt in
  match train, test with
  | Some tr, Some te => res = (tr, te)
  | None, None => res = dflt
  | Some tr, None =>
      fst res = tr /\ StronglySorted lt (snd res) /\
      (forall i, In i (snd res) <-> (i < n /\ ~ In i tr))
  | None, Some te =>
      snd res = te /\ StronglySorted lt (fst res) /\
      (forall i, In i (fst res) <-> (i < n /\ ~ In i te))
  end.
Proof.
  intros n [tr|] [te|] dflt; cbn; try reflexivity;
    (split; [reflexivity|]; split; [apply complement_sorted | apply complement_In]).
Qed.

(* with one index set given the two sets are disjoint and cover range(n) *)
Theorem resolve_idx_partition : forall n idx i,
  i < n -> (In i idx \/ In i (complement n idx)) /\ ~ (In i idx /\ In i (complement n idx)).
Proof.
  intros n idx i Hi. split.
  - destruct (in_dec Nat.eq_dec i idx) as [H|H]; [now left | right; now apply complement_In].
  - intros [H1 H2]. apply complement_In in H2. now destruct H2.
Qed.

(* the guards: a call is accepted iff the sample counts agree (and n_local_points <= len(X));
   the number of neighbours actually used never exceeds the number of training rows *)
Theorem guards_spec : forall nX nY k ntrain,
  (global_guard nX nY = true <-> nX = nY) /\
  (local_guard nX nY k = true <-> (k <= nX /\ nX = nY)) /\
  eff_k k ntrain <= ntrain /\ (k <= ntrain -> eff_k k ntrain = k) /\
  (ntrain <= k -> eff_k k ntrain = ntrain).
Proof.
  intros nX nY k ntrain. unfold global_guard, local_guard, eff_k.
  split; [apply Nat.eqb_eq|]. split; [|lia].
  rewrite andb_true_iff, Nat.leb_le, Nat.eqb_eq. tauto.
Qed.
