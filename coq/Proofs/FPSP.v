(* Theorems about the FPS model (Model/FPS.v): the distance table is the true table of
   minimum squared distances, every step picks a farthest candidate, the reported
   select distances are the true minima and do not increase. *)
From Verif Require Import ListX Greedy FPS ListXP GreedyP.

Section DTP.
  Variable cs : list (list Z).
  Variable ycand : option (list (list Z)).
  Variable nm : list Z.
  Variable cross : nat -> list Z.
  Variable dist : nat -> nat -> Z.
  Let n := length cs.
  Hypothesis Hnew : forall l, (l < n)%nat -> newdist nm cross l = map (fun j => dist j l) (seq 0 n).
  Hypothesis dist_nonneg : forall j l, 0 <= dist j l.
  Hypothesis dist_self : forall i, dist i i = 0.

  Definition tabmin (j : nat) (s : list nat) : ExtZ :=
    fold_left (fun a i => ext_min a (dist j i)) s None.

  Lemma tabmin_app c s i : tabmin c (s ++ [i]) = ext_min (tabmin c s) (dist c i).
  Proof. unfold tabmin. now rewrite fold_left_app. Qed.

  Lemma tabmin_some c s : s <> [] -> exists z, tabmin c s = Some z /\ 0 <= z.
  Proof using dist_nonneg.
    induction s as [|i s IH] using rev_ind; [congruence|]. intros _. rewrite tabmin_app.
    destruct s as [|j s].
    - cbn. eexists; split; [reflexivity|apply dist_nonneg].
    - destruct IH as (z & Hz & Hz0); [discriminate|]. rewrite Hz. cbn.
      eexists; split; [reflexivity|]. pose proof (dist_nonneg c i) as Hd. clear - Hz0 Hd. lia.
  Qed.

  Lemma tabmin_in c s i : In i s -> ext_le (tabmin c s) (Some (dist c i)).
  Proof.
    induction s as [|j s IH] using rev_ind; [intros []|]. intros Hin. rewrite tabmin_app.
    apply in_app_or in Hin as [Hin|[->|[]]].
    - eapply ext_le_trans; [apply ext_min_le_l|apply IH, Hin].
    - apply ext_min_le_r.
  Qed.

  Lemma tabmin_selected s i : In i s -> tabmin i s = Some 0.
  Proof using dist_nonneg dist_self.
    intros Hin. pose proof (tabmin_in i s i Hin) as Hle. rewrite dist_self in Hle.
    destruct (tabmin_some i s) as (z & Hz & Hz0); [intros ->; exact Hin|].
    rewrite Hz in Hle |- *. cbn in Hle. f_equal. clear - Hle Hz0. lia.
  Qed.

  Notation fupd := (dupd nm cross).
  Notation fpost := (post dst (dupd nm cross) cs ycand).
  Notation dt_g := (gst dst).
  Definition FP (s : dst) : Prop := length (haus s) = n /\ length (hsel s) = n.

  Lemma FP_len s : FP s -> length (dscore s) = n.
  Proof. intros [H _]. unfold dscore. now rewrite map_length. Qed.

  Lemma FP_upd s i : FP s -> (i < n)%nat -> FP (fupd s i).
  Proof.
    intros [H1 H2] Hi. split; cbn.
    - rewrite map2_length, H1, Hnew, map_length, seq_length by exact Hi. apply Nat.min_id.
    - now rewrite upd_nth_length.
  Qed.

  Notation GI := (GInv dst cs ycand FP).

  (* hausdorff_ holds the true minima; hausdorff_at_select_ holds, at the t-th selection, the
     entry that selection had when it was made (the minimum over the t earlier ones) *)
  Definition TabInv (g : dt_g) : Prop :=
    haus (sst g) = map (fun j => tabmin j (sel g)) (seq 0 n) /\
    (forall t, (t < length (sel g))%nat ->
       nth (nth t (sel g) O) (hsel (sst g)) None = tabmin (nth t (sel g) O) (firstn t (sel g))).

  Definition FInv (g : dt_g) : Prop := GI g /\ TabInv g.

  Lemma FInv_post g i : FInv g -> (i < n)%nat -> ~ In i (sel g) -> FInv (fpost g i).
  Proof.
    intros [HG [Ht Hs]] Hi Hni. split; [apply (post_inv dst _ cs ycand FP FP_upd); assumption|].
    destruct HG as (_ & _ & _ & _ & _ & HF2). split; cbn [post sst sel dupd haus hsel].
    - rewrite Ht, Hnew, map2_map by exact Hi. apply map_ext. intros c. now rewrite tabmin_app.
    - intros t Hlt. rewrite app_length in Hlt. cbn in Hlt.
      destruct (Nat.eq_dec t (length (sel g))) as [->|Hne].
      + rewrite nth_middle, firstn_app, Nat.sub_diag, firstn_all, app_nil_r.
        rewrite nth_upd_nth_eq by (rewrite HF2; exact Hi). rewrite Ht. exact (nth_map_seq (fun j => tabmin j (sel g)) n i None Hi).
      + assert (Hlt' : (t < length (sel g))%nat) by lia.
        rewrite app_nth1, firstn_app by exact Hlt'.
        replace (t - length (sel g))%nat with O by lia. rewrite app_nil_r.
        rewrite nth_upd_nth_neq; [apply Hs; exact Hlt'|].
        intros ->. apply Hni. apply nth_In. exact Hlt'.
  Qed.

  Lemma FInv_same (a b : dt_g) :
    FInv a -> sel b = sel a -> xsel b = xsel a -> ysel b = ysel a -> sst b = sst a -> FInv b.
  Proof. unfold FInv, TabInv, GInv. intros H -> -> -> ->. exact H. Qed.

  Definition g0 : dt_g := mk_gst [] [] [] (dst0 n) None.

  Lemma FInv_g0 : FInv g0.
  Proof.
    split; [|split; cbn; [symmetry; apply map_const_seq|intros t Ht; lia]].
    unfold GInv, g0; cbn. repeat split; try constructor; apply repeat_length.
  Qed.

  Lemma FInv_init (inits : list nat) g :
    FInv g -> NoDup (sel g ++ inits) -> Forall (fun i => (i < n)%nat) inits ->
    FInv (fold_left fpost inits g) /\ sel (fold_left fpost inits g) = sel g ++ inits.
  Proof.
    revert g; induction inits as [|i r IH]; intros g HG Hnd Hr; cbn; [now rewrite app_nil_r|].
    inversion Hr as [|? ? Hi Hr']; subst.
    destruct (IH (fpost g i)) as (H1 & H2); [|cbn [post sel]; now rewrite <- app_assoc|exact Hr'|].
    - apply FInv_post; [exact HG|exact Hi|]. intros Hin. apply NoDup_remove_2 in Hnd.
      apply Hnd, in_or_app. now left.
    - split; [exact H1|]. rewrite H2. cbn [post sel]. now rewrite <- app_assoc.
  Qed.

  Lemma FInv_run t k g g' st :
    FInv g -> run dst dscore fupd cs ycand t k g = (g', st) -> FInv g'.
  Proof.
    intros HI Hrun. refine (run_ind dst dscore _ cs ycand FP FP_len FP_upd FInv t k g g' st _ _ (proj1 HI) HI Hrun).
    - intros a b. apply FInv_same.
    - intros a i _ Ha (Hi & Hni & _). now apply FInv_post.
  Qed.

  Lemma FInv_select_distance g k : FInv g -> (k < length (sel g))%nat ->
    nth k (select_distance g) None = tabmin (nth k (sel g) O) (firstn k (sel g)).
  Proof.
    intros [_ [_ Hs]] Hk. unfold select_distance.
    rewrite (nth_map_lt (fun i => nth i (hsel (sst g)) None) (sel g) k None O Hk). now apply Hs.
  Qed.

  Section Fit.
    Variable inits : list nat.
    Hypothesis Hnd : NoDup inits.
    Hypothesis Hrange : Forall (fun i => (i < n)%nat) inits.
    Variable t : thr.
    Variable niter : nat.
    Variable g' : dt_g.
    Variable st : bool.
    Let gi := fold_left fpost inits g0.
    Hypothesis Hfit : run dst dscore (dupd nm cross) cs ycand t niter gi = (g', st).

    Lemma gi_inv : FInv gi /\ sel gi = inits.
    Proof. apply (FInv_init inits g0 FInv_g0); assumption. Qed.

    Lemma fit_FInv : FInv g'.
    Proof. exact (FInv_run _ _ _ _ _ (proj1 gi_inv) Hfit). Qed.

    (* the two clauses of [fit_FInv] for a fit from [inits], each on its own *)
    Theorem table_true : haus (sst g') = map (fun j => tabmin j (sel g')) (seq 0 n).
    Proof using Hnew Hnd Hrange Hfit. apply fit_FInv. Qed.

    Theorem select_distance_true :
      forall k, (k < length (sel g'))%nat ->
        nth k (select_distance g') None = tabmin (nth k (sel g') O) (firstn k (sel g')).
    Proof using Hnew Hnd Hrange Hfit. intros k. apply FInv_select_distance, fit_FInv. Qed.

    Theorem initial_selections : firstn (length inits) (sel g') = inits.
    Proof.
      destruct gi_inv as ([A _] & C).
      destruct (run_extends dst dscore _ cs ycand FP FP_len FP_upd _ _ _ _ _ A Hfit) as (new & Hn & _).
      rewrite Hn, C. rewrite firstn_app, Nat.sub_diag, firstn_all. cbn. now rewrite app_nil_r.
    Qed.
  End Fit.

  (* a fit that starts from one index (PCov-FPS, Voronoi FPS) *)
  Lemma FInv_first i0 : (i0 < n)%nat -> FInv (fpost g0 i0).
  Proof. intros Hi. apply FInv_post; [exact FInv_g0|exact Hi|intros []]. Qed.

  Lemma fit1_FInv i0 t k g' st :
    (i0 < n)%nat -> run dst dscore fupd cs ycand t k (fpost g0 i0) = (g', st) -> FInv g'.
  Proof.
    intros Hi. apply FInv_run, FInv_first, Hi.
  Qed.

  (* maximal entry, and different from the entry of every earlier unselected index: the FIRST
     index of maximal entry, as np.argmax returns it *)
  Definition is_farthest (s : list nat) (i : nat) : Prop :=
    (i < n)%nat /\ ~ In i s /\
    (forall j, (j < n)%nat -> ext_le (tabmin j s) (tabmin i s)) /\
    (forall j, (j < i)%nat -> ~ In j s -> tabmin j s <> tabmin i s).

  Fixpoint farthest_seq (s new : list nat) : Prop :=
    match new with
    | [] => True
    | i :: rest => is_farthest s i /\ farthest_seq (s ++ [i]) rest
    end.

  (* the score of candidate j is its table entry (0 once selected, finite once anything is) *)
  Lemma score_tabmin (g : dt_g) j : FInv g -> sel g <> [] -> (j < n)%nat ->
    tabmin j (sel g) = Some (nth j (dscore (sst g)) 0) /\ 0 <= nth j (dscore (sst g)) 0.
  Proof.
    intros [_ [Ht _]] Hne Hj. destruct (tabmin_some j (sel g) Hne) as (z & Hz & Hz0).
    unfold dscore. rewrite Ht, map_map, nth_map_seq, Hz by exact Hj. auto.
  Qed.

  Lemma is_best_farthest (g : dt_g) i :
    FInv g -> sel g <> [] -> is_best dst dscore cs g i -> is_farthest (sel g) i.
  Proof.
    intros HG Hne (Hi & Hni & Hmax & Hfirst). pose proof (fun j => score_tabmin g j HG Hne) as Hsc.
    destruct (Hsc i Hi) as [Ei Ei0]. repeat split; auto.
    - intros j Hj. destruct (Hsc j Hj) as [Ej _]. rewrite Ei.
      destruct (in_dec Nat.eq_dec j (sel g)) as [Hin|Hnin].
      + now rewrite (tabmin_selected _ _ Hin).
      + rewrite Ej. exact (Hmax j Hj Hnin).
    - intros j Hj Hnj. destruct (Hsc j ltac:(lia)) as [Ej _]. rewrite Ei, Ej.
      specialize (Hfirst j Hj Hnj). intros E. injection E as E. lia.
  Qed.

  Lemma best_seq_farthest (g : dt_g) new :
    FInv g -> sel g <> [] ->
    best_seq dst dscore (dupd nm cross) cs ycand g new ->
    farthest_seq (sel g) new.
  Proof.
    revert g; induction new as [|i rest IH]; intros g HG Hne Hseq; cbn; [exact I|].
    destruct Hseq as (g1 & Hs & Hss & Hx & Hy & Hb & Hrest).
    pose proof (is_best_farthest g i HG Hne Hb) as Hf. split; [exact Hf|].
    destruct Hf as (Hi & Hni & _).
    specialize (IH (fpost g1 i)). cbn [post sel] in IH. rewrite Hs in IH. apply IH; [| |exact Hrest].
    - apply FInv_post; [eapply FInv_same; eauto|exact Hi|rewrite Hs; exact Hni].
    - intros E. apply app_eq_nil in E as [_ E]. discriminate.
  Qed.

  Lemma run_farthest t k g g' st :
    FInv g -> sel g <> [] -> run dst dscore fupd cs ycand t k g = (g', st) ->
    exists new, sel g' = sel g ++ new /\ farthest_seq (sel g) new.
  Proof.
    intros HI Hne Hrun.
    destruct (run_best_seq dst dscore _ cs ycand FP FP_len FP_upd _ _ _ _ _ (proj1 HI) Hrun) as (new & Hn & Hseq).
    exists new. split; [exact Hn|]. now apply best_seq_farthest.
  Qed.

  Lemma fit1_farthest i0 t k g' st :
    (i0 < n)%nat -> run dst dscore fupd cs ycand t k (fpost g0 i0) = (g', st) ->
    exists new, sel g' = [i0] ++ new /\ farthest_seq [i0] new.
  Proof.
    intros Hi. apply run_farthest; [exact (FInv_first i0 Hi)|discriminate].
  Qed.

  Theorem fit_steps_farthest inits t niter g' st :
    NoDup inits -> Forall (fun i => (i < n)%nat) inits -> inits <> [] ->
    run dst dscore (dupd nm cross) cs ycand t niter (fold_left fpost inits g0) = (g', st) ->
    exists new, sel g' = inits ++ new /\ farthest_seq inits new.
  Proof using Hnew dist_nonneg dist_self.
    intros Hnd Hr Hne Hfit. destruct (gi_inv inits Hnd Hr) as (A & C).
    rewrite <- C. apply (run_farthest t niter _ g' st A); [now rewrite C|exact Hfit].
  Qed.

  Fixpoint dists (s new : list nat) : list ExtZ :=
    match new with
    | [] => []
    | i :: r => tabmin i s :: dists (s ++ [i]) r
    end.

  Fixpoint nonincreasing (l : list ExtZ) : Prop :=
    match l with
    | a :: ((b :: _) as t) => ext_le b a /\ nonincreasing t
    | _ => True
    end.

  Theorem farthest_dists_nonincreasing s new :
    farthest_seq s new -> nonincreasing (dists s new).
  Proof using.
    revert s; induction new as [|i [|j r] IH]; intros s H; cbn; auto.
    destruct H as (Hfi & Hfj & Hrest). split.
    - destruct Hfi as (_ & _ & Hmax & _). destruct Hfj as (Hj & _).
      eapply ext_le_trans; [|apply (Hmax j Hj)]. rewrite tabmin_app. apply ext_min_le_l.
    - apply (IH (s ++ [i])). cbn. auto.
  Qed.
End DTP.
