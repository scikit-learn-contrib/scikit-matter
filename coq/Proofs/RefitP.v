(* Soundness of the definite-assignment analyser of Model/Refit.v (stdlib style).

   [lockstep_gen]: if [da L D c] reports no site, two executions of c under the same oracle, with
   the same fuel, from the same local memory and from stores that agree on every known attribute,
   stay together: both run out of fuel, or both end the same way (same exit kind, same local
   memory) in stores that agree on the set the analyser computed for that exit.
   The four inductions over the fuel ([lockstep_gen], [exec_mono], [exec_frame_gen], [exec_ext]) treat a
   compound command alike: the sub-command runs first ([rres_bind], [ores_bind]), then its exit decides.
   [refit_ok_sound] / [refit_fresh_sound]: the two stores may differ arbitrarily on the learned
   attributes (any prior history of the object versus a fresh estimator); a terminating cold fit
   ends, in both, with the same exit and -- unless it raised -- with exactly the same store. *)
From Coq Require Import List PArith Bool Arith Lia MSets.MSetPositive.
Import ListNotations.
From Verif Require Import Effects Refit.

Lemma mem_add_or : forall a b D, PS.mem a (PS.add b D) = true <-> a = b \/ PS.mem a D = true.
Proof.
  intros a b D. rewrite !PS.mem_spec. rewrite PS.add_spec. reflexivity.
Qed.

Lemma subset_mem : forall D E a, PS.subset D E = true -> PS.mem a D = true -> PS.mem a E = true.
Proof.
  intros D E a Hs Hm. apply PS.subset_spec in Hs. apply PS.mem_spec. apply Hs. now apply PS.mem_spec.
Qed.

Lemma subset_refl : forall D, PS.subset D D = true.
Proof. intro D. apply PS.subset_spec. intros a H. exact H. Qed.

Lemma inter_sub_l : forall D E, PS.subset (PS.inter D E) D = true.
Proof. intros D E. apply PS.subset_spec. intros a H. now apply PS.inter_spec in H. Qed.

Lemma inter_sub_r : forall D E, PS.subset (PS.inter D E) E = true.
Proof. intros D E. apply PS.subset_spec. intros a H. now apply PS.inter_spec in H. Qed.

Lemma mem_union_false :
  forall a D E, PS.mem a (PS.union D E) = false -> PS.mem a D = false /\ PS.mem a E = false.
Proof.
  intros a D E H. rewrite <- !not_true_iff_false in *. rewrite !PS.mem_spec in *.
  rewrite PS.union_spec in H. tauto.
Qed.

Lemma mem_singleton_false : forall a b, PS.mem a (PS.singleton b) = false -> a <> b.
Proof.
  intros a b H E. rewrite <- not_true_iff_false, PS.mem_spec, PS.singleton_spec in H. exact (H E).
Qed.

Lemma supd_same : forall st a v, supd st a v a = v.
Proof. intros. unfold supd. now rewrite Pos.eqb_refl. Qed.

Lemma supd_other : forall st a v b, b <> a -> supd st a v b = st b.
Proof.
  intros st a v b Hne. unfold supd.
  destruct (Pos.eqb b a) eqn:E; [apply Pos.eqb_eq in E; contradiction | reflexivity].
Qed.

Lemma omeet_l : forall o1 o2 D1, o1 = Some D1 -> exists D, omeet o1 o2 = Some D /\ PS.subset D D1 = true.
Proof.
  intros o1 [D2 |] D1 ->; cbn; eexists; (split; [reflexivity |]); [apply inter_sub_l | apply subset_refl].
Qed.

Lemma omeet_r : forall o1 o2 D2, o2 = Some D2 -> exists D, omeet o1 o2 = Some D /\ PS.subset D D2 = true.
Proof.
  intros [D1 |] o2 D2 ->; cbn; eexists; (split; [reflexivity |]); [apply inter_sub_r | apply subset_refl].
Qed.

Definition agree (L D : PS.t) (s1 s2 : store) : Prop :=
  forall a, known L D a = true -> s1 a = s2 a.

Definition oagree (L : PS.t) (o : option PS.t) (s1 s2 : store) : Prop :=
  exists D, o = Some D /\ agree L D s1 s2.

Lemma known_iff : forall L D a, known L D a = true <-> PS.mem a D = true \/ PS.mem a L = false.
Proof. intros L D a. unfold known. now rewrite orb_true_iff, negb_true_iff. Qed.

(* agreement on a larger determined set is the stronger statement *)
Lemma agree_sub : forall L D E s1 s2, PS.subset D E = true -> agree L E s1 s2 -> agree L D s1 s2.
Proof.
  intros L D E s1 s2 Hs Ha a Hk. apply Ha. rewrite known_iff in *.
  destruct Hk as [Hk | Hk]; [left; eapply subset_mem; eassumption | right; exact Hk].
Qed.

Lemma agree_upd :
  forall L D s1 s2 a v, agree L D s1 s2 -> agree L (PS.add a D) (supd s1 a v) (supd s2 a v).
Proof.
  intros L D s1 s2 a v Ha b Hk.
  destruct (Pos.eq_dec b a) as [-> | Hne]; [now rewrite !supd_same |].
  rewrite !supd_other by exact Hne. apply Ha. rewrite known_iff, mem_add_or in *. tauto.
Qed.

Lemma agree_empty :
  forall L s1 s2, (forall a, PS.mem a L = false -> s1 a = s2 a) -> agree L PS.empty s1 s2.
Proof. intros L s1 s2 H a Hk. apply H. apply known_iff in Hk. now destruct Hk. Qed.

Lemma agree_all : forall L D s1 s2, PS.subset L D = true -> agree L D s1 s2 -> forall a, s1 a = s2 a.
Proof.
  intros L D s1 s2 Hs Ha a. apply Ha, known_iff.
  destruct (PS.mem a L) eqn:E; [left; exact (subset_mem _ _ _ Hs E) | right; reflexivity].
Qed.

Lemma oagree_some : forall L D s1 s2, agree L D s1 s2 -> oagree L (Some D) s1 s2.
Proof. intros. exists D. split; [reflexivity | assumption]. Qed.

Lemma oagree_inv : forall L D s1 s2, oagree L (Some D) s1 s2 -> agree L D s1 s2.
Proof. intros L D s1 s2 [D' [E H]]. inversion E. subst. exact H. Qed.

Lemma oagree_none : forall L s1 s2, oagree L None s1 s2 -> False.
Proof. intros L s1 s2 [D [E _]]. discriminate E. Qed.

Lemma oagree_meet_l : forall L o1 o2 s1 s2, oagree L o1 s1 s2 -> oagree L (omeet o1 o2) s1 s2.
Proof.
  intros L o1 o2 s1 s2 [D1 [E H]]. destruct (omeet_l o1 o2 D1 E) as [D [-> Hs]].
  apply oagree_some. eapply agree_sub; eassumption.
Qed.

Lemma oagree_meet_r : forall L o1 o2 s1 s2, oagree L o2 s1 s2 -> oagree L (omeet o1 o2) s1 s2.
Proof.
  intros L o1 o2 s1 s2 [D2 [E H]]. destruct (omeet_r o1 o2 D2 E) as [D [-> Hs]].
  apply oagree_some. eapply agree_sub; eassumption.
Qed.

Lemma oagree_osub :
  forall L D o s1 s2, osub D o = true -> oagree L o s1 s2 -> agree L D s1 s2.
Proof.
  intros L D o s1 s2 Hs [E [Eq H]]. subst o. cbn in Hs. eapply agree_sub; eassumption.
Qed.

Lemma sel_xmeet : forall k x y, sel k (xmeet x y) = omeet (sel k x) (sel k y).
Proof. intros k x y. destruct k; reflexivity. Qed.

(* two results of the interpreter: both out of fuel, or the same exit kind and local memory and
   stores related by R *)
Definition rres (R : kind -> store -> store -> Prop) (r1 r2 : option res) : Prop :=
  match r1, r2 with
  | Some (k1, m1, t1), Some (k2, m2, t2) => k1 = k2 /\ m1 = m2 /\ R k1 t1 t2
  | None, None => True
  | _, _ => False
  end.

Lemma rres_exit :
  forall (R : kind -> store -> store -> Prop) k m t1 t2,
    R k t1 t2 -> rres R (Some (k, m, t1)) (Some (k, m, t2)).
Proof. intros R k m t1 t2 H. repeat split. exact H. Qed.

Lemma rres_weaken :
  forall (R R' : kind -> store -> store -> Prop) r1 r2,
    (forall k t1 t2, R k t1 t2 -> R' k t1 t2) -> rres R r1 r2 -> rres R' r1 r2.
Proof.
  intros R R' [[[k1 m1] t1] |] [[[k2 m2] t2] |] W; cbn; try exact (fun H => H).
  intros [Ek [Em H]]. auto.
Qed.

(* a sub-command runs first in both executions, then each continues according to its exit *)
Lemma rres_bind :
  forall (R R' : kind -> store -> store -> Prop) r1 r2 (g1 g2 : kind -> mem -> store -> option res),
    rres R r1 r2 ->
    (forall k m t1 t2, R k t1 t2 -> rres R' (g1 k m t1) (g2 k m t2)) ->
    rres R' (match r1 with Some (k, m, t) => g1 k m t | None => None end)
            (match r2 with Some (k, m, t) => g2 k m t | None => None end).
Proof.
  intros R R' [[[k1 m1] t1] |] [[[k2 m2] t2] |] g1 g2 H Hg; try (exact H || contradiction).
  destruct H as [<- [<- H]]. now apply Hg.
Qed.

(* the stores agree on the set that x gives for the exit taken *)
Definition lock (L : PS.t) (x : exits) : option res -> option res -> Prop :=
  rres (fun k => oagree L (sel k x)).

Lemma lock_exit :
  forall L x D k m t1 t2,
    sel k x = Some D -> agree L D t1 t2 -> lock L x (Some (k, m, t1)) (Some (k, m, t2)).
Proof. intros L x D k m t1 t2 E H. apply rres_exit. rewrite E. now apply oagree_some. Qed.

Lemma exec_S : forall Oc f c m st, exec Oc (S f) c m st = exec_body Oc (exec Oc f) c m st.
Proof. reflexivity. Qed.

(* In each compound command the sub-command c1 runs first in both executions ([rres_bind] with the
   induction hypothesis): the exit kinds coincide, and either the exit is passed on (its set is one
   side of a meet) or execution goes on from stores that agree on the set the analyser continued with. *)
Lemma lockstep_gen :
  forall Oc L fuel c D m s1 s2 x,
    da L D c = (x, []) -> agree L D s1 s2 ->
    lock L x (exec Oc fuel c m s1) (exec Oc fuel c m s2).
Proof.
  intros Oc L. induction fuel as [| f IH]; intros c D m s1 s2 x Hda Hag; [exact I |].
  pose proof Hda as Hda0. unfold lock in *.
  destruct c as [| a s | a s | a s | a s | s | c1 c2 | s c1 c2 | s c1 | c1 | | | | | s c1 h];
    cbn [exec exec_body]; cbn [da] in Hda.
  1, 6, 11-14: injection Hda as <-; now apply (lock_exit L _ D).
  - destruct (known L D a) eqn:Hk; [| discriminate Hda]. injection Hda as <-.
    rewrite (Hag a Hk). now apply (lock_exit L _ D).
  - injection Hda as <-. apply (lock_exit L _ (PS.add a D)); [reflexivity | now apply agree_upd].
  - destruct (known L D a) eqn:Hk; [| discriminate Hda]. injection Hda as <-.
    rewrite <- (Hag a Hk). destruct (s1 a).
    + apply (lock_exit L _ (PS.add a D)); [reflexivity | now apply agree_upd].
    + now apply (lock_exit L _ D).
  - injection Hda as <-. apply (lock_exit L _ (PS.add a D)); [reflexivity | now apply agree_upd].
  - (* CSeq *)
    destruct (da L D c1) as [x1 b1] eqn:E1.
    assert (B1 : b1 = []).
    { destruct (xn x1); [destruct (da L _ c2) |]; injection Hda as _ Hb; [now apply app_eq_nil in Hb | exact Hb]. }
    subst b1. apply (rres_bind _ _ _ _ _ _ (IH c1 D m s1 s2 x1 E1 Hag)). intros ka ma ta tb Ho.
    destruct (xn x1) as [D1 |] eqn:En.
    + destruct (da L D1 c2) as [x2 b2] eqn:E2. injection Hda as <- ->.
      destruct ka; cbn [sel] in Ho; try (apply rres_exit; cbn [sel xn xr xe xb xc]; now apply oagree_meet_l).
      rewrite En in Ho. apply oagree_inv in Ho.
      apply (rres_weaken (fun k => oagree L (sel k x2))); [| now apply (IH c2 D1)].
      intros [] ? ?; cbn [sel xn xr xe xb xc]; auto using oagree_meet_r.
    + injection Hda as <-.
      destruct ka; try (apply rres_exit; exact Ho).
      cbn [sel] in Ho. rewrite En in Ho. now apply oagree_none in Ho.
  - (* CIf *)
    destruct (da L D c1) as [x1 b1] eqn:E1. destruct (da L D c2) as [x2 b2] eqn:E2.
    injection Hda as <- Hb. apply app_eq_nil in Hb as [-> ->].
    destruct (br Oc s m).
    + apply (rres_weaken (fun k => oagree L (sel k x1))); [| now apply (IH c1 D)].
      intros k ? ?. rewrite sel_xmeet. apply oagree_meet_l.
    + apply (rres_weaken (fun k => oagree L (sel k x2))); [| now apply (IH c2 D)].
      intros k ? ?. rewrite sel_xmeet. apply oagree_meet_r.
  - (* CWhile: the next iteration starts from stores that agree on D again, by the check *)
    destruct (da L D c1) as [x1 b1] eqn:E1. injection Hda as <- Hb. apply app_eq_nil in Hb as [-> Hchk].
    destruct (osub D (xn x1) && osub D (xc x1)) eqn:Echk; [| discriminate Hchk].
    apply andb_true_iff in Echk as [Cn Cc].
    destruct (br Oc s m);
      [| apply rres_exit; exact (oagree_meet_l L (Some D) (xb x1) _ _ (oagree_some L D _ _ Hag))].
    apply (rres_bind _ _ _ _ _ _ (IH c1 D m s1 s2 x1 E1 Hag)). intros ka ma ta tb Ho.
    destruct ka; cbn [sel] in Ho.
    + apply (IH (CWhile s c1) D); [exact Hda0 | exact (oagree_osub L D _ ta tb Cn Ho)].
    + apply rres_exit. exact Ho.
    + apply rres_exit. exact Ho.
    + apply rres_exit. exact (oagree_meet_r L (Some D) (xb x1) _ _ Ho).
    + apply (IH (CWhile s c1) D); [exact Hda0 | exact (oagree_osub L D _ ta tb Cc Ho)].
  - (* CCall *)
    destruct (da L D c1) as [x1 b1] eqn:E1. injection Hda as <- ->.
    apply (rres_bind _ _ _ _ _ _ (IH c1 D m s1 s2 x1 E1 Hag)). intros ka ma ta tb Ho.
    destruct ka; cbn [sel] in Ho; apply rres_exit; cbn [sel xn xr xe xb xc]; try exact Ho.
    + now apply oagree_meet_l.
    + now apply oagree_meet_r.
  - (* CTry *)
    destruct (da L D c1) as [x1 b1] eqn:E1.
    assert (B1 : b1 = []).
    { destruct (xe x1); [destruct (da L _ h) |]; injection Hda as _ Hb; [now apply app_eq_nil in Hb | exact Hb]. }
    subst b1. apply (rres_bind _ _ _ _ _ _ (IH c1 D m s1 s2 x1 E1 Hag)). intros ka ma ta tb Ho.
    destruct (xe x1) as [De |] eqn:Ee.
    + destruct (da L De h) as [x2 b2] eqn:E2. injection Hda as <- ->.
      destruct ka; cbn [sel] in Ho; try (apply rres_exit; cbn [sel xn xr xe xb xc]; now apply oagree_meet_l).
      rewrite Ee in Ho. apply oagree_inv in Ho.
      destruct (br Oc s ma);
        [| apply rres_exit; exact (oagree_meet_l L (Some De) (xe x2) _ _ (oagree_some L De _ _ Ho))].
      apply (rres_weaken (fun k => oagree L (sel k x2))); [| now apply (IH h De)].
      intros [] ? ?; cbn [sel xn xr xe xb xc]; try apply oagree_meet_r.
      apply (oagree_meet_r L (Some De)).
    + injection Hda as <-.
      destruct ka; try (apply rres_exit; exact Ho).
      cbn [sel] in Ho. rewrite Ee in Ho. now apply oagree_none in Ho.
Qed.

Lemma lockstep :
  forall Oc L fuel c D m s1 s2 x k1 m1 t1 k2 m2 t2,
    da L D c = (x, []) -> agree L D s1 s2 ->
    exec Oc fuel c m s1 = Some (k1, m1, t1) ->
    exec Oc fuel c m s2 = Some (k2, m2, t2) ->
    k1 = k2 /\ m1 = m2 /\ oagree L (sel k1 x) t1 t2.
Proof.
  intros Oc L fuel c D m s1 s2 x k1 m1 t1 k2 m2 t2 Hda Hag H1 H2.
  pose proof (lockstep_gen Oc L fuel c D m s1 s2 x Hda Hag) as H. rewrite H1, H2 in H. exact H.
Qed.

(* more fuel changes nothing: the interpreter step is monotone in the recursive call *)
Lemma exec_body_mono :
  forall Oc (r1 r2 : cmd -> mem -> store -> option res),
    (forall c m st r, r1 c m st = Some r -> r2 c m st = Some r) ->
    forall c m st r, exec_body Oc r1 c m st = Some r -> exec_body Oc r2 c m st = Some r.
Proof.
  intros Oc r1 r2 Hr c m st r.
  destruct c as [| a s | a s | a s | a s | s | c1 c2 | s c1 c2 | s c1 | c1 | | | | | s c1 h];
    cbn [exec_body]; try exact (fun H => H).
  - destruct (r1 c1 m st) as [[[ka ma] ta] |] eqn:Ea; [| discriminate]. rewrite (Hr _ _ _ _ Ea).
    destruct ka; auto.
  - destruct (br Oc s m); apply Hr.
  - destruct (br Oc s m); [| exact (fun H => H)].
    destruct (r1 c1 m st) as [[[ka ma] ta] |] eqn:Ea; [| discriminate]. rewrite (Hr _ _ _ _ Ea).
    destruct ka; auto.
  - destruct (r1 c1 m st) as [[[ka ma] ta] |] eqn:Ea; [| discriminate]. rewrite (Hr _ _ _ _ Ea).
    exact (fun H => H).
  - destruct (r1 c1 m st) as [[[ka ma] ta] |] eqn:Ea; [| discriminate]. rewrite (Hr _ _ _ _ Ea).
    destruct ka; auto. destruct (br Oc s ma); auto.
Qed.

Lemma exec_mono :
  forall Oc f f' c m st r, f <= f' -> exec Oc f c m st = Some r -> exec Oc f' c m st = Some r.
Proof.
  intros Oc. induction f as [| f IH]; intros [| f'] c m st r Hle H; try discriminate H; [lia |].
  rewrite exec_S in *. revert H. apply exec_body_mono. intros c' m' st' r'. apply IH. lia.
Qed.

Lemma runs_common_fuel :
  forall Oc c m s1 s2 r1 r2, runs Oc c m s1 r1 -> runs Oc c m s2 r2 ->
    exists f, exec Oc f c m s1 = Some r1 /\ exec Oc f c m s2 = Some r2.
Proof.
  intros Oc c m s1 s2 r1 r2 [f1 R1] [f2 R2]. exists (max f1 f2).
  split; eapply exec_mono; try eassumption; lia.
Qed.

Definition ores (Q : kind -> mem -> store -> Prop) (r : option res) : Prop :=
  match r with Some (k, m, t) => Q k m t | None => True end.

Lemma ores_bind :
  forall (Q Q' : kind -> mem -> store -> Prop) r (g : kind -> mem -> store -> option res),
    ores Q r -> (forall k m t, Q k m t -> ores Q' (g k m t)) ->
    ores Q' (match r with Some (k, m, t) => g k m t | None => None end).
Proof. intros Q Q' [[[k m] t] |] g H Hg; [now apply Hg | exact I]. Qed.

(* a command changes only the attributes in [writes c] *)
Lemma exec_frame_gen :
  forall Oc f c m st a, PS.mem a (writes c) = false -> ores (fun _ _ t => t a = st a) (exec Oc f c m st).
Proof.
  intros Oc. induction f as [| f IH]; intros c m st a Hw; [exact I |].
  destruct c as [| b s | b s | b s | b s | s | c1 c2 | s c1 c2 | s c1 | c1 | | | | | s c1 h];
    cbn [exec exec_body]; cbn [writes] in Hw.
  1, 2, 6, 11-14: reflexivity.
  - apply supd_other. now apply mem_singleton_false.
  - destruct (st b); [apply supd_other; now apply mem_singleton_false | reflexivity].
  - apply supd_other. now apply mem_singleton_false.
  - apply mem_union_false in Hw. destruct Hw as [W1 W2].
    apply (ores_bind _ _ _ _ (IH c1 m st a W1)). intros ka ma ta F1.
    destruct ka; try exact F1. rewrite <- F1. now apply IH.
  - apply mem_union_false in Hw. destruct Hw as [W1 W2]. destruct (br Oc s m); now apply IH.
  - destruct (br Oc s m); [| reflexivity].
    apply (ores_bind _ _ _ _ (IH c1 m st a Hw)). intros ka ma ta F1.
    destruct ka; try exact F1; rewrite <- F1; now apply (IH (CWhile s c1)).
  - apply (ores_bind _ _ _ _ (IH c1 m st a Hw)). intros ka ma ta F1. destruct ka; exact F1.
  - apply mem_union_false in Hw. destruct Hw as [W1 W2].
    apply (ores_bind _ _ _ _ (IH c1 m st a W1)). intros ka ma ta F1.
    destruct ka; try exact F1. destruct (br Oc s ma); [| exact F1]. rewrite <- F1. now apply IH.
Qed.

Lemma exec_frame :
  forall Oc f c m st k m' st',
    exec Oc f c m st = Some (k, m', st') ->
    forall a, PS.mem a (writes c) = false -> st' a = st a.
Proof.
  intros Oc f c m st k m' st' H a Hw.
  pose proof (exec_frame_gen Oc f c m st a Hw) as F. rewrite H in F. exact F.
Qed.

Lemma history_frame :
  forall Oc P st st', history Oc P st st' ->
    forall a, PS.mem a (learned P) = false -> st' a = st a.
Proof.
  intros Oc P st st' H. induction H as [st | c m st k m' st' st'' Hin [fuel Hrun] _ IHh]; intros a Ha.
  - reflexivity.
  - rewrite (IHh a Ha). eapply exec_frame; [exact Hrun |].
    revert Hin Ha. unfold learned. induction (methods P) as [| c0 l IHl]; intros Hin Ha; [contradiction |].
    cbn [fold_right] in Ha. apply mem_union_false in Ha. destruct Ha as [H0 Hl].
    destruct Hin as [E | Hin]; [now subst | now apply IHl].
Qed.

Lemma fit_lockstep :
  forall Oc L c, refit_sites L c = [] ->
  forall m s1 s2 k1 m1 t1 k2 m2 t2,
    (forall a, PS.mem a L = false -> s1 a = s2 a) ->
    runs Oc c m s1 (k1, m1, t1) -> runs Oc c m s2 (k2, m2, t2) ->
    k1 = k2 /\ m1 = m2 /\
    ((k1 = KN \/ k1 = KR) -> exists D, refit_final L c = Some D /\ agree L D t1 t2).
Proof.
  intros Oc L c Hs m s1 s2 k1 m1 t1 k2 m2 t2 Hout R1 R2.
  unfold refit_sites, refit_final in *. destruct (da L PS.empty c) as [x b] eqn:Eda. cbn [fst snd] in *. subst b.
  destruct (runs_common_fuel Oc c m s1 s2 _ _ R1 R2) as [f [E1 E2]].
  destruct (lockstep Oc L f c PS.empty m s1 s2 x k1 m1 t1 k2 m2 t2 Eda (agree_empty L s1 s2 Hout) E1 E2)
    as [Ek [Em [D' [Es Ha]]]].
  repeat split; try assumption.
  intros [E | E]; rewrite E in Es; cbn [sel] in Es;
    [destruct (omeet_l _ (xr x) D' Es) as [D [Ef Hsub]] | destruct (omeet_r (xn x) _ D' Es) as [D [Ef Hsub]]];
    exists D; (split; [exact Ef | eapply agree_sub; eassumption]).
Qed.

Theorem refit_ok_sound :
  forall Oc L c, refit_ok L c = true ->
  forall m s1 s2 k1 m1 t1 k2 m2 t2,
    (forall a, PS.mem a L = false -> s1 a = s2 a) ->
    runs Oc c m s1 (k1, m1, t1) -> runs Oc c m s2 (k2, m2, t2) ->
    k1 = k2 /\ m1 = m2 /\ ((k1 = KN \/ k1 = KR) -> forall a, t1 a = t2 a).
Proof.
  intros Oc L c Hok m s1 s2 k1 m1 t1 k2 m2 t2 Hout R1 R2.
  unfold refit_ok in Hok. destruct (refit_sites L c) eqn:Es; [| discriminate Hok].
  destruct (fit_lockstep Oc L c Es m s1 s2 k1 m1 t1 k2 m2 t2 Hout R1 R2) as [Ek [Em Hf]].
  repeat split; try assumption.
  intros Hk. destruct (Hf Hk) as [D [Ef Ha]]. rewrite Ef in Hok. exact (agree_all L D t1 t2 Hok Ha).
Qed.

Theorem refit_fresh_sound :
  forall Oc P, refit_fresh P = true ->
  forall st0 sth, history Oc P st0 sth ->
  forall m k1 m1 t1 k2 m2 t2,
    runs Oc (fit P) m sth (k1, m1, t1) -> runs Oc (fit P) m st0 (k2, m2, t2) ->
    k1 = k2 /\ m1 = m2 /\ ((k1 = KN \/ k1 = KR) -> forall a, t1 a = t2 a).
Proof.
  intros Oc P Hok st0 sth Hh m k1 m1 t1 k2 m2 t2 R1 R2.
  eapply refit_ok_sound; [exact Hok | | exact R1 | exact R2].
  intros a Ha. eapply history_frame; eassumption.
Qed.

(* stores are functions: equality of stores is pointwise, so determinism has to be proved *)
Lemma supd_ext :
  forall (s1 s2 : store) b v, (forall a, s1 a = s2 a) -> forall a, supd s1 b v a = supd s2 b v a.
Proof. intros s1 s2 b v He a. unfold supd. destruct (Pos.eqb a b); [reflexivity | apply He]. Qed.

Lemma exec_ext :
  forall Oc f c m s1 s2, (forall a, s1 a = s2 a) ->
    rres (fun _ t1 t2 => forall a, t1 a = t2 a) (exec Oc f c m s1) (exec Oc f c m s2).
Proof.
  intros Oc. induction f as [| f IH]; intros c m s1 s2 He; [exact I |].
  destruct c as [| b s | b s | b s | b s | s | c1 c2 | s c1 c2 | s c1 | c1 | | | | | s c1 h];
    cbn [exec exec_body].
  1, 6, 11-14: now apply rres_exit.
  - rewrite (He b). now apply rres_exit.
  - apply rres_exit. now apply supd_ext.
  - rewrite (He b). destruct (s2 b); apply rres_exit; [now apply supd_ext | exact He].
  - apply rres_exit. now apply supd_ext.
  - apply (rres_bind _ _ _ _ _ _ (IH c1 m s1 s2 He)). intros ka ma ta tb Et. destruct ka; try (now apply rres_exit). now apply IH.
  - destruct (br Oc s m); now apply IH.
  - destruct (br Oc s m); [| now apply rres_exit].
    apply (rres_bind _ _ _ _ _ _ (IH c1 m s1 s2 He)). intros ka ma ta tb Et. destruct ka; try (now apply rres_exit); now apply IH.
  - apply (rres_bind _ _ _ _ _ _ (IH c1 m s1 s2 He)). intros ka ma ta tb Et. destruct ka; now apply rres_exit.
  - apply (rres_bind _ _ _ _ _ _ (IH c1 m s1 s2 He)). intros ka ma ta tb Et. destruct ka; try (now apply rres_exit).
    destruct (br Oc s ma); [now apply IH | now apply rres_exit].
Qed.

Theorem refit_then_method :
  forall Oc P, refit_fresh P = true ->
  forall st0 sth, history Oc P st0 sth ->
  forall m k1 m1 t1 k2 m2 t2,
    runs Oc (fit P) m sth (k1, m1, t1) -> runs Oc (fit P) m st0 (k2, m2, t2) ->
    (k1 = KN \/ k1 = KR) ->
    forall c mc fuel, In c (methods P) ->
      match exec Oc fuel c mc t1, exec Oc fuel c mc t2 with
      | Some (ka, ma, ta), Some (kb, mb, tb) => ka = kb /\ ma = mb /\ forall a, ta a = tb a
      | None, None => True
      | _, _ => False
      end.
Proof.
  intros Oc P Hok st0 sth Hh m k1 m1 t1 k2 m2 t2 R1 R2 Hk c mc fuel _.
  destruct (refit_fresh_sound Oc P Hok st0 sth Hh m k1 m1 t1 k2 m2 t2 R1 R2) as [_ [_ Heq]].
  exact (exec_ext Oc fuel c mc t1 t2 (Heq Hk)).
Qed.

Lemma method_ok_sel :
  forall L D c, method_ok L D c = true ->
    exists x, da L D c = (x, []) /\ forall k, osub D (sel k x) = true.
Proof.
  intros L D c H. unfold method_ok in H. destruct (da L D c) as [x [| s0 b]]; [| discriminate H].
  rewrite !andb_true_iff in H. destruct H as [[[[Hn Hr] He] Hb] Hc].
  exists x. split; [reflexivity | intros []; assumption].
Qed.

Lemma run_calls_agree :
  forall Oc L D fuel calls s1 s2 l1 l2,
    (forall c m, In (c, m) calls -> method_ok L D c = true) ->
    agree L D s1 s2 ->
    run_calls Oc fuel calls s1 = Some l1 -> run_calls Oc fuel calls s2 = Some l2 -> l1 = l2.
Proof.
  intros Oc L D fuel. induction calls as [| [c m] t IHt]; intros s1 s2 l1 l2 Hall Hag R1 R2.
  - cbn in R1, R2. congruence.
  - cbn [run_calls] in R1, R2.
    destruct (method_ok_sel L D c (Hall c m (or_introl eq_refl))) as [x [Eda Hsub]].
    pose proof (lockstep_gen Oc L fuel c D m s1 s2 x Eda Hag) as I1.
    destruct (exec Oc fuel c m s1) as [[[ka ma] ta] |]; [| discriminate R1].
    destruct (exec Oc fuel c m s2) as [[[kb mb] tb] |]; [| discriminate R2].
    destruct I1 as [<- [<- Ho]]. apply (oagree_osub L D _ ta tb (Hsub ka)) in Ho.
    destruct (run_calls Oc fuel t ta) as [la |] eqn:Ra; [| discriminate R1].
    destruct (run_calls Oc fuel t tb) as [lb |] eqn:Rb; [| discriminate R2].
    injection R1 as <-. injection R2 as <-. f_equal.
    apply (IHt ta tb la lb); auto. intros c' m' Hin. apply (Hall c' m'). now right.
Qed.

Theorem refit_observable_sound :
  forall Oc P, refit_observable P = true ->
  forall st0 sth, history Oc P st0 sth ->
  forall m k1 m1 t1 k2 m2 t2,
    runs Oc (fit P) m sth (k1, m1, t1) -> runs Oc (fit P) m st0 (k2, m2, t2) ->
    k1 = k2 /\ m1 = m2 /\
    ((k1 = KN \/ k1 = KR) ->
     forall calls fuel l1 l2,
       (forall c mc, In (c, mc) calls -> In c (methods P)) ->
       run_calls Oc fuel calls t1 = Some l1 -> run_calls Oc fuel calls t2 = Some l2 -> l1 = l2).
Proof.
  intros Oc P Hok st0 sth Hh m k1 m1 t1 k2 m2 t2 R1 R2.
  unfold refit_observable in Hok. destruct (refit_sites (learned P) (fit P)) eqn:Es; [| discriminate Hok].
  destruct (fit_lockstep Oc _ _ Es m sth st0 k1 m1 t1 k2 m2 t2 (history_frame Oc P st0 sth Hh) R1 R2)
    as [Ek [Em Hf]].
  repeat split; try assumption.
  intros Hk calls fuel l1 l2 Hin C1 C2. destruct (Hf Hk) as [D [Ef Ha]]. rewrite Ef in Hok.
  rewrite forallb_forall in Hok.
  apply (run_calls_agree Oc (learned P) D fuel calls t1 t2 l1 l2); auto.
  intros c mc Hc. apply Hok. eapply Hin. exact Hc.
Qed.
