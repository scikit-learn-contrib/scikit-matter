(* One hull dimension: the monotone chain of Model/DCH.v computes exactly the lower-hull
   vertices.  Points are (x, y) pairs over Z, input sorted by strictly increasing x.
   Stdlib style. *)
From Coq Require Import Sorting.Sorted.
From Verif Require Import ListX DCH.

Definition xgt (a b : pt) : Prop := fst b < fst a.

Lemma cross_cyc a b c : cross a b c = cross b c a.
Proof. unfold cross. ring. Qed.
Lemma cross_swap a b c : cross a c b = - cross a b c.
Proof. unfold cross. ring. Qed.
Lemma cross_same_r a b : cross a b b = 0.
Proof. unfold cross. ring. Qed.
Lemma cross_same_l a b : cross a b a = 0.
Proof. unfold cross. ring. Qed.

(* left turns compose along increasing x: a b c and b c e turn left, so does a b e *)
Lemma turn_trans_r a b c e : fst a < fst b -> fst b < fst c -> fst c < fst e ->
  0 < cross a b c -> 0 < cross b c e -> 0 < cross a b e.
Proof.
  destruct a as [ax ay], b as [bx by_], c as [cx cy], e as [ex ey]; unfold cross; cbn [fst snd].
  intros. nia.
Qed.

(* the mirror image: e left of a, l, h; a l e and a l h turn left, so does l h e *)
Lemma turn_trans_l e a l h : fst e < fst a -> fst a < fst l -> fst l < fst h ->
  0 < cross a l e -> 0 < cross a l h -> 0 < cross l h e.
Proof.
  destruct e as [ex ey], a as [ax ay], l as [lx ly], h as [hx hy]; unfold cross; cbn [fst snd].
  intros. nia.
Qed.

(* q on or above the segment u v, whose ends are on or above the line h r: q is on or above that line *)
Lemma above_segment u v q h r : fst u < fst q -> fst q < fst v -> fst h < fst r ->
  0 <= cross u v q -> 0 <= cross h r u -> 0 <= cross h r v -> 0 <= cross h r q.
Proof.
  destruct u as [ux uy], v as [vx vy], q as [qx qy], h as [hx hy], r as [rx ry];
    unfold cross; cbn [fst snd]. intros.
  assert (E : (vx - ux) * ((rx - hx) * (qy - hy) - (ry - hy) * (qx - hx)) =
     (rx - hx) * ((vx - ux) * (qy - uy) - (vy - uy) * (qx - ux))
     + (vx - qx) * ((rx - hx) * (uy - hy) - (ry - hy) * (ux - hx))
     + (qx - ux) * ((rx - hx) * (vy - hy) - (ry - hy) * (vx - hx))) by ring.
  nia.
Qed.

(* popping s1 (right turn s2 s1 p): a point covered by the pair s2 s1 is covered by s2 p *)
Lemma L1 s2 s1 q p : fst s2 < fst q -> fst q < fst s1 -> fst s1 < fst p ->
  0 <= cross s2 s1 q -> cross s2 s1 p <= 0 -> 0 <= cross s2 p q.
Proof.
  destruct s2 as [ax ay], s1 as [bx by_], q as [qx qy], p as [px py]; unfold cross; cbn [fst snd].
  intros. nia.
Qed.

(* popping s1: a point covered by the pair s1 p is covered by s2 p *)
Lemma L2 s2 s1 q p : fst s2 < fst s1 -> fst s1 < fst q -> fst q < fst p ->
  0 <= cross s1 p q -> cross s2 s1 p <= 0 -> 0 <= cross s2 p q.
Proof.
  destruct s2 as [ax ay], s1 as [bx by_], q as [qx qy], p as [px py]; unfold cross; cbn [fst snd].
  intros. nia.
Qed.

(* a strict chain vertex h (neighbours l, r; a on or above l h, b on or above h r) lies strictly
   below the segment a b straddling it *)
Lemma vertex_below_straddle l h r a b : fst l < fst h -> fst h < fst r -> fst a < fst h -> fst h < fst b ->
  0 <= cross l h a -> 0 <= cross h r b -> 0 < cross l h r -> cross a b h < 0.
Proof.
  destruct l as [lx ly], h as [hx hy], r as [rx ry], a as [ax ay], b as [bx by_];
    unfold cross; cbn [fst snd]. intros Hl Hr Ha Hb C1 C2 C3.
  set (c1 := (hx - lx) * (ay - ly) - (hy - ly) * (ax - lx)) in *.
  set (c2 := (rx - hx) * (by_ - hy) - (ry - hy) * (bx - hx)) in *.
  set (c3 := (hx - lx) * (ry - ly) - (hy - ly) * (rx - lx)) in *.
  set (X := (bx - ax) * (hy - ay) - (by_ - ay) * (hx - ax)).
  assert (E : (hx - lx) * (rx - hx) * X =
     - ((hx - lx) * (hx - ax) * c2) - ((rx - hx) * (bx - hx) * c1) - (hx - ax) * (bx - hx) * c3)
    by (unfold c1, c2, c3, X; ring).
  assert (0 <= (hx - lx) * (hx - ax) * c2) by (apply Z.mul_nonneg_nonneg; [apply Z.mul_nonneg_nonneg|]; lia).
  assert (0 <= (rx - hx) * (bx - hx) * c1) by (apply Z.mul_nonneg_nonneg; [apply Z.mul_nonneg_nonneg|]; lia).
  assert (0 < (hx - ax) * (bx - hx) * c3) by (apply Z.mul_pos_pos; [apply Z.mul_pos_pos|]; lia).
  assert (D : 0 <= (hx - lx) * (rx - hx)) by (apply Z.mul_nonneg_nonneg; lia).
  destruct (Z_lt_le_dec X 0) as [|N]; [assumption|]. pose proof (Z.mul_nonneg_nonneg _ _ D N). lia.
Qed.

Lemma SS_app_inv {A} (R : A -> A -> Prop) l1 l2 :
  StronglySorted R (l1 ++ l2) ->
  StronglySorted R l1 /\ StronglySorted R l2 /\ forall a b, In a l1 -> In b l2 -> R a b.
Proof.
  induction l1 as [|x l1 IH]; cbn; intros H.
  - split; [constructor|]. split; [assumption|]. intros a b [].
  - inversion H as [|? ? Hs Hf]; subst. destruct (IH Hs) as (S1 & S2 & Hab).
    rewrite Forall_app in Hf. destruct Hf as [F1 F2]. split; [now constructor|].
    split; [assumption|]. intros a b [<-|Ha] Hb; [|auto].
    rewrite Forall_forall in F2. auto.
Qed.

Lemma SS_app {A} (R : A -> A -> Prop) l1 l2 :
  StronglySorted R l1 -> StronglySorted R l2 -> (forall a b, In a l1 -> In b l2 -> R a b) ->
  StronglySorted R (l1 ++ l2).
Proof.
  induction l1 as [|x l1 IH]; cbn; intros S1 S2 Hab; [assumption|].
  inversion S1 as [|? ? Hs Hf]; subst. constructor.
  - apply IH; auto.
  - apply Forall_app. split; [assumption|]. apply Forall_forall. intros b Hb. apply Hab; auto.
Qed.

Lemma SS_rev {A} (R : A -> A -> Prop) l :
  StronglySorted R l -> StronglySorted (fun a b => R b a) (rev l).
Proof.
  induction l as [|x l IH]; cbn; intros H; [constructor|].
  inversion H as [|? ? Hs Hf]; subst. apply SS_app; [auto|repeat constructor|].
  intros a b Ha [<-|[]]. apply in_rev in Ha. rewrite Forall_forall in Hf. auto.
Qed.

Lemma SS_adj {A} (R : A -> A -> Prop) X a b Y : StronglySorted R (X ++ a :: b :: Y) -> R a b.
Proof.
  intros H. apply SS_app_inv in H as (_ & H & _). apply StronglySorted_inv in H as [_ F].
  now inversion F.
Qed.

(* [st] lists the chain last point first (decreasing x) *)
Fixpoint rconvex (st : list pt) : Prop :=
  match st with
  | c :: ((b :: a :: _) as t) => 0 < cross a b c /\ rconvex t
  | _ => True
  end.

Definition covered_pair (s s' q : pt) : Prop :=
  fst s < fst q /\ fst q < fst s' /\ 0 <= cross s s' q.
Definition covered (st : list pt) (q : pt) : Prop :=
  exists pre s' s post, st = pre ++ s' :: s :: post /\ covered_pair s s' q.

Lemma rconvex_tail x t : rconvex (x :: t) -> rconvex t.
Proof. destruct t as [|b [|a t']]; cbn; tauto. Qed.

Lemma rconvex_app X Y : rconvex (X ++ Y) -> rconvex Y.
Proof. induction X as [|x X IH]; cbn [app]; intros H; [assumption|]. apply IH. eapply rconvex_tail; eassumption. Qed.

Lemma rconvex_at st X c b a Y : rconvex st -> st = X ++ c :: b :: a :: Y -> 0 < cross a b c.
Proof. intros H ->. apply rconvex_app in H. cbn in H. tauto. Qed.

Definition loop_inv (st : list pt) (p q : pt) : Prop :=
  In q st \/ covered st q \/ exists t rest, st = t :: rest /\ covered_pair t p q.

Lemma pop_spec p : forall st,
  StronglySorted xgt st -> rconvex st -> (forall s, In s st -> fst s < fst p) ->
  (exists pre, st = pre ++ pop st p) /\ rconvex (p :: pop st p) /\
  (forall q, loop_inv st p q -> loop_inv (pop st p) p q).
Proof.
  induction st as [|s1 t IH]; intros Hs Hc Hp.
  { cbn. split; [exists []; reflexivity|]. split; [exact I|]. auto. }
  destruct t as [|s2 rest].
  - cbn. split; [exists []; reflexivity|]. split; [exact I|]. auto.
  - cbn [pop]. destruct (cross s2 s1 p <=? 0) eqn:E.
    + apply Z.leb_le in E.
      assert (Hs' : StronglySorted xgt (s2 :: rest)) by (inversion Hs; assumption).
      assert (H21 : fst s2 < fst s1).
      { inversion Hs as [|? ? _ Hf]; subst. rewrite Forall_forall in Hf. apply Hf. now left. }
      assert (H1p : fst s1 < fst p) by (apply Hp; now left).
      destruct (IH Hs' (rconvex_tail _ _ Hc)) as ((pre & Epre) & Hcv & Hinv).
      { intros s Hin. apply Hp. now right. }
      split; [exists (s1 :: pre); cbn [app]; f_equal; exact Epre|]. split; [exact Hcv|].
      intros q Hq. apply Hinv. clear Hinv IH.
      destruct Hq as [[<-|Hq]|[Hq|Hq]].
      * right. right. exists s2, rest. split; [reflexivity|]. unfold covered_pair.
        rewrite cross_swap. lia.
      * now left.
      * destruct Hq as (pr & s' & s & post & Est & Hcp).
        destruct pr as [|x pr]; cbn in Est.
        -- injection Est as <- <- <-. right. right. exists s2, rest. split; [reflexivity|].
           destruct Hcp as (A1 & A2 & A3). unfold covered_pair. repeat split; try lia.
           apply (L1 s2 s1 q p); lia.
        -- injection Est as <- Est. right. left. exists pr, s', s, post. now split.
      * destruct Hq as (t & rs & Et & (A1 & A2 & A3)). injection Et as <- <-.
        right. right. exists s2, rest. split; [reflexivity|]. unfold covered_pair.
        repeat split; try lia. apply (L2 s2 s1 q p); lia.
    + apply Z.leb_gt in E. split; [exists []; reflexivity|]. split; [|auto].
      cbn. split; [lia|]. exact Hc.
Qed.

Definition inv (st done : list pt) : Prop :=
  StronglySorted xgt st /\ rconvex st /\ (forall s, In s st -> In s done) /\
  (forall q, In q done -> In q st \/ covered st q).

Lemma push_inv st done p :
  inv st done -> (forall s, In s done -> fst s < fst p) -> inv (push st p) (done ++ [p]).
Proof.
  intros (Hs & Hc & Hsub & Hcov) Hp. unfold push.
  destruct (pop_spec p st Hs Hc) as ((pre & Epre) & Hcv & Hinv); [auto|].
  set (st' := pop st p) in *.
  assert (Hin' : forall s, In s st' -> In s st).
  { intros s H. rewrite Epre. apply in_or_app. now right. }
  split; [|split; [exact Hcv|split]].
  - constructor.
    + rewrite Epre in Hs. apply SS_app_inv in Hs. tauto.
    + apply Forall_forall. intros s H. unfold xgt. auto.
  - intros s [<-|H]; apply in_or_app; [right; now left|left; auto].
  - intros q Hq. apply in_app_or in Hq as [Hq|[<-|[]]]; [|left; now left].
    assert (L : loop_inv st p q) by (destruct (Hcov q Hq); [now left|right; now left]).
    destruct (Hinv q L) as [H|[H|H]].
    + left. now right.
    + right. destruct H as (pr & s' & s & post & E & Hcp).
      exists (p :: pr), s', s, post. split; [cbn; now rewrite E|assumption].
    + right. destruct H as (t & rs & E & Hcp). exists [], p, t, rs. split; [cbn; now rewrite E|assumption].
Qed.

Lemma fold_inv : forall rest done st,
  inv st done -> StronglySorted xlt (done ++ rest) ->
  inv (fold_left push rest st) (done ++ rest).
Proof.
  induction rest as [|p rest IH]; intros done st Hi Hs; cbn.
  - now rewrite app_nil_r.
  - replace (done ++ p :: rest) with ((done ++ [p]) ++ rest) in * by (rewrite <- app_assoc; reflexivity).
    apply IH; [|assumption]. apply push_inv; [assumption|].
    intros s Hin. apply SS_app_inv in Hs as (S1 & _ & _). apply SS_app_inv in S1 as (_ & _ & H).
    apply (H s p Hin). now left.
Qed.

Lemma inv_nil : inv [] [].
Proof. split; [constructor|]. split; [exact I|]. split; intros ? []. Qed.

Section Global.
  Variable st : list pt.
  Hypothesis Hs : StronglySorted xgt st.
  Hypothesis Hc : rconvex st.

  Lemma right_above : forall R r h Y,
    st = R ++ r :: h :: Y -> Forall (fun z => 0 < cross h r z) R.
  Proof.
    induction R as [|z0 R' IH] using rev_ind; intros r h Y E; [constructor|].
    assert (E' : st = R' ++ z0 :: r :: h :: Y) by (rewrite E, <- app_assoc; reflexivity).
    pose proof (rconvex_at st R' z0 r h Y Hc E') as C0.
    apply Forall_app. split; [|repeat constructor; exact C0].
    pose proof (IH z0 r (h :: Y) E') as F. apply Forall_forall. intros z Hz.
    rewrite Forall_forall in F. specialize (F z Hz).
    pose proof Hs as S'. rewrite E' in S'.
    assert (fst z0 < fst z) by (apply SS_app_inv in S' as (_ & _ & Hab); apply (Hab z z0 Hz); now left).
    apply (turn_trans_r h r z0 z); try assumption.
    - apply (SS_adj xgt (R' ++ [z0]) r h Y). now rewrite <- app_assoc.
    - apply (SS_adj xgt R' z0 r (h :: Y) S').
  Qed.

  Lemma left_above : forall L X h l,
    st = X ++ h :: l :: L -> Forall (fun z => 0 < cross l h z) L.
  Proof.
    induction L as [|e L' IH]; intros X h l E; [constructor|].
    pose proof (rconvex_at st X h l e L' Hc E) as C0.
    constructor; [now rewrite <- cross_cyc|].
    assert (E' : st = (X ++ [h]) ++ l :: e :: L') by (rewrite E, <- app_assoc; reflexivity).
    pose proof (IH (X ++ [h]) l e E') as F. apply Forall_forall. intros z Hz.
    rewrite Forall_forall in F. specialize (F z Hz).
    pose proof Hs as S'. rewrite E' in S'.
    assert (fst z < fst e).
    { apply SS_app_inv in S' as (_ & S2 & _). apply StronglySorted_inv in S2 as [S3 _].
      apply StronglySorted_inv in S3 as [_ F5]. rewrite Forall_forall in F5. now apply F5. }
    apply (turn_trans_l z e l h); try assumption.
    - apply (SS_adj xgt (X ++ [h]) l e L' S').
    - apply (SS_adj xgt X h l (e :: L')). now rewrite <- E.
  Qed.

  (* the line through two adjacent chain points supports the whole chain *)
  Lemma chain_above X h l L z : st = X ++ h :: l :: L -> In z st -> 0 <= cross l h z.
  Proof.
    intros E Hz. rewrite E in Hz. apply in_app_or in Hz as [Hz|[<-|[<-|Hz]]].
    - pose proof (right_above X h l L E) as F. rewrite Forall_forall in F. specialize (F z Hz). lia.
    - rewrite cross_same_r. lia.
    - rewrite cross_same_l. lia.
    - pose proof (left_above L X h l E) as F. rewrite Forall_forall in F. specialize (F z Hz). lia.
  Qed.

  Variable pts : list pt.
  Hypothesis Hcov : forall q, In q pts -> In q st \/ covered st q.

  (* ... and hence every input point: a covered point lies on or above a segment between two chain points *)
  Lemma all_above X h l L p : st = X ++ h :: l :: L -> In p pts -> 0 <= cross l h p.
  Proof.
    intros E Hp. destruct (Hcov p Hp) as [H|(pre & s' & s & post & E2 & (A1 & A2 & A3))].
    - now apply (chain_above X h l L).
    - apply (above_segment s s' p l h); try assumption.
      + apply (SS_adj xgt X h l L). now rewrite <- E.
      + apply (chain_above X h l L _ E). rewrite E2. apply in_or_app. right. right. now left.
      + apply (chain_above X h l L _ E). rewrite E2. apply in_or_app. right. now left.
  Qed.

  (* a chain point with chain points on both sides has a neighbour on both sides *)
  Lemma chain_neighbours h zb za :
    In h st -> In zb st -> fst h < fst zb -> In za st -> fst za < fst h ->
    exists R r l L, st = R ++ r :: h :: l :: L.
  Proof.
    intros Hh Hzb Hb' Hza Ha'. destruct (in_split h st Hh) as (R0 & L0 & E).
    pose proof Hs as Hs'. rewrite E in Hs'. apply SS_app_inv in Hs' as (_ & S2 & Hab).
    apply StronglySorted_inv in S2 as [_ F]. rewrite Forall_forall in F. unfold xgt in F, Hab.
    assert (HR : In zb R0).
    { rewrite E in Hzb. apply in_app_or in Hzb as [|[<-|Hz]]; [assumption|lia|]. specialize (F _ Hz). lia. }
    assert (HL : In za L0).
    { rewrite E in Hza. apply in_app_or in Hza as [Hz|[<-|]]; [|lia|assumption].
      specialize (Hab za h Hz (or_introl eq_refl)). lia. }
    destruct (exists_last (l := R0)) as (R & r & ->); [intros ->; destruct HR|].
    destruct L0 as [|l L]; [destruct HL|].
    exists R, r, l, L. rewrite E, <- app_assoc. reflexivity.
  Qed.

  Lemma chain_vertex_lower h a b :
    In h st -> In a pts -> In b pts -> fst a < fst h -> fst h < fst b -> cross a b h < 0.
  Proof.
    intros Hh Ha Hb Hah Hhb.
    assert (Hzb : exists z, In z st /\ fst h < fst z).
    { destruct (Hcov b Hb) as [H|(pre & s' & s & post & E2 & (A1 & A2 & A3))]; [eauto|].
      exists s'. split; [rewrite E2; apply in_or_app; right; now left|lia]. }
    assert (Hza : exists z, In z st /\ fst z < fst h).
    { destruct (Hcov a Ha) as [H|(pre & s' & s & post & E2 & (A1 & A2 & A3))]; [eauto|].
      exists s. split; [rewrite E2; apply in_or_app; right; right; now left|lia]. }
    destruct Hzb as (zb & Hzb & Hb'). destruct Hza as (za & Hza & Ha').
    destruct (chain_neighbours h zb za Hh Hzb Hb' Hza Ha') as (R & r & l & L & E1).
    assert (E : st = (R ++ [r]) ++ h :: l :: L) by (rewrite E1, <- app_assoc; reflexivity).
    apply (vertex_below_straddle l h r a b); try assumption.
    - apply (SS_adj xgt (R ++ [r]) h l L). now rewrite <- E.
    - apply (SS_adj xgt R r h (l :: L)). now rewrite <- E1.
    - apply (all_above (R ++ [r]) h l L); assumption.
    - apply (all_above R r h (l :: L)); assumption.
    - apply (rconvex_at st R r h l L Hc E1).
  Qed.
End Global.

Lemma not_lower_1d_b_spec pts q : not_lower_1d_b pts q = true <-> not_lower_1d pts q.
Proof.
  unfold not_lower_1d_b, not_lower_1d. rewrite existsb_exists. split.
  - intros (a & Ha & H). apply existsb_exists in H as (b & Hb & H).
    apply andb_true_iff in H as [H H3]. apply andb_true_iff in H as [H1 H2].
    apply Z.ltb_lt in H1, H2. apply Z.leb_le in H3. exists a, b. tauto.
  - intros (a & b & Ha & Hb & H1 & H2 & H3). exists a. split; [assumption|].
    apply existsb_exists. exists b. split; [assumption|].
    rewrite !andb_true_iff, !Z.ltb_lt, Z.leb_le. tauto.
Qed.

Theorem chain_spec pts :
  StronglySorted xlt pts ->
  StronglySorted xlt (chain pts) /\
  (forall q, In q (chain pts) -> In q pts) /\
  (forall q, In q pts -> ~ In q (chain pts) -> not_lower_1d pts q) /\
  (forall h, In h (chain pts) -> ~ not_lower_1d pts h).
Proof.
  intros Hs. unfold chain.
  destruct (fold_inv pts [] [] inv_nil Hs) as (S & C & Hsub & Hcov). cbn [app] in *.
  set (st := fold_left push pts []) in *.
  split; [|split; [|split]].
  - apply SS_rev in S. exact S.
  - intros q Hq. apply in_rev in Hq. auto.
  - intros q Hq Hn. destruct (Hcov q Hq) as [H|H]; [exfalso; apply Hn; now apply in_rev in H|].
    destruct H as (pre & s' & s & post & E & (A1 & A2 & A3)).
    exists s, s'. repeat split; try assumption; apply Hsub; rewrite E; apply in_or_app; right;
      [right; now left|now left].
  - intros h Hh (a & b & Ha & Hb & H1 & H2 & H3). apply in_rev in Hh.
    pose proof (chain_vertex_lower st S C pts Hcov h a b Hh Ha Hb H1 H2). lia.
Qed.

(* two lists strictly sorted by an asymmetric relation, with the same elements, are equal *)
Lemma SS_ext {A} (R : A -> A -> Prop) : (forall a b, R a b -> R b a -> False) ->
  forall l1 l2, StronglySorted R l1 -> StronglySorted R l2 -> (forall q, In q l1 <-> In q l2) -> l1 = l2.
Proof.
  intros Asym. induction l1 as [|a1 t1 IH]; intros [|a2 t2] S1 S2 H.
  - reflexivity.
  - exfalso. apply (H a2). now left.
  - exfalso. apply (H a1). now left.
  - inversion S1 as [|? ? S1' F1]; inversion S2 as [|? ? S2' F2]; subst.
    rewrite Forall_forall in F1, F2.
    assert (a1 = a2).
    { destruct (proj1 (H a1) (or_introl eq_refl)) as [E|H1]; [congruence|].
      destruct (proj2 (H a2) (or_introl eq_refl)) as [E|H2]; [congruence|].
      destruct (Asym a1 a2); auto. }
    subst a2. f_equal. apply IH; try assumption. intros q. split; intros Hq.
    + destruct (proj1 (H q) (or_intror Hq)) as [<-|]; [|assumption]. destruct (Asym a1 a1); auto.
    + destruct (proj2 (H q) (or_intror Hq)) as [<-|]; [|assumption]. destruct (Asym a1 a1); auto.
Qed.

Lemma SS_filter {A} (R : A -> A -> Prop) f l : StronglySorted R l -> StronglySorted R (filter f l).
Proof.
  induction l as [|x l IH]; cbn; intros H; [constructor|]. inversion H as [|? ? Hs Hf]; subst.
  destruct (f x); [|auto]. constructor; [auto|]. apply Forall_forall. intros y Hy.
  apply filter_In in Hy as [Hy _]. rewrite Forall_forall in Hf. auto.
Qed.

Lemma sorted_x_spec pts : sorted_x pts = true -> StronglySorted xlt pts.
Proof.
  (* adjacent comparisons suffice since < on Z is transitive *)
  induction pts as [|a t IH]; intros H; [constructor|].
  destruct t as [|b t']; [repeat constructor|].
  cbn [sorted_x] in H. apply andb_true_iff in H as [H1 H2]. apply Z.ltb_lt in H1.
  specialize (IH H2). constructor; [assumption|].
  inversion IH as [|? ? _ F]; subst. constructor; [exact H1|].
  eapply Forall_impl; [|exact F]. intros c Hc. unfold xlt in *. lia.
Qed.

Theorem chain_is_lower_hull pts :
  sorted_x pts = true -> chain pts = filter (lower_1d_b pts) pts.
Proof.
  intros Hsx. pose proof (sorted_x_spec pts Hsx) as Hs.
  destruct (chain_spec pts Hs) as (S & Hsub & Hnot & Hlow).
  apply (SS_ext xlt); [unfold xlt; lia|assumption|now apply SS_filter|].
  intros q. rewrite filter_In. unfold lower_1d_b. rewrite negb_true_iff. split.
  - intros Hq. split; [auto|]. destruct (not_lower_1d_b pts q) eqn:E; [|reflexivity].
    exfalso. apply (Hlow q Hq). now apply not_lower_1d_b_spec.
  - intros [Hq E].
    destruct (In_dec (fun a b : pt => ltac:(decide equality; apply Z.eq_dec)) q (chain pts)) as [|Hn];
      [assumption|].
    exfalso. specialize (Hnot q Hq Hn). apply not_lower_1d_b_spec in Hnot. congruence.
Qed.
