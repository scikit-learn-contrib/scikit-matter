(* C02: the r-net theorem (Proofs/FPSNetP.v) stated on what the object
   REPORTS: get_distance() (haus) and get_select_distance(); instance for fps_fit. *)
From Verif Require Import ListX Greedy FPS ListXP FPSP C02Thm FPSNetP.

Lemma dists_nth (dist : nat -> nat -> Z) new : forall s k, (k < length new)%nat ->
  nth k (dists dist s new) None = tabmin dist (nth k new O) (s ++ firstn k new).
Proof.
  induction new as [|a new IH]; intros s k Hk; cbn in Hk; [lia|].
  destruct k as [|k]; cbn.
  - now rewrite app_nil_r.
  - rewrite IH by lia. rewrite <- app_assoc. reflexivity.
Qed.

Lemma dists_length (dist : nat -> nat -> Z) new : forall s, length (dists dist s new) = length new.
Proof. induction new as [|a new IH]; intros s; cbn; [reflexivity|now rewrite IH]. Qed.

Section Reported.
  Variables (cs : list (list Z)) (ycand : option (list (list Z))) (dist : nat -> nat -> Z).
  Variables (g : fps_g) (inits new0 : list nat) (i : nat).
  Hypothesis HI : FInv cs ycand dist g.
  Hypothesis Hsel : sel g = inits ++ new0 ++ [i].
  Hypothesis Hfar : farthest_seq cs dist inits (new0 ++ [i]).
  Notation r := (nth (length (sel g) - 1) (select_distance g) None).

  Lemma select_distance_dists k : (length inits <= k < length (sel g))%nat ->
    nth k (select_distance g) None = nth (k - length inits) (dists dist inits (new0 ++ [i])) None.
  Proof.
    intros Hk. rewrite (FInv_select_distance cs ycand dist g k HI) by lia.
    rewrite Hsel, app_length in *. rewrite dists_nth, app_nth2, firstn_app, firstn_all2 by lia.
    reflexivity.
  Qed.

  Lemma net_reported :
    Forall (fun h => ext_le h r) (haus (sst g)) /\
    forall k, (length inits <= k < length (sel g))%nat -> ext_le r (nth k (select_distance g) None).
  Proof.
    assert (Hlen : length (sel g) = (length inits + length new0 + 1)%nat)
      by (rewrite Hsel, !app_length; cbn; lia).
    assert (Hr_eq : r = tabmin dist i (inits ++ new0)).
    { rewrite select_distance_dists, dists_app by lia.
      replace (length (sel g) - 1 - length inits)%nat with (length (dists dist inits new0))
        by (rewrite dists_length; lia).
      apply nth_middle. }
    rewrite Hr_eq. split.
    - rewrite (proj1 (proj2 HI)). apply Forall_forall. intros h Hin.
      apply in_map_iff in Hin as (j & <- & Hj). apply in_seq in Hj. rewrite Hsel, app_assoc.
      apply (farthest_net_covering_after cs dist inits new0 i Hfar). lia.
    - intros k Hk. rewrite (select_distance_dists k Hk).
      pose proof (farthest_net_packing cs dist inits new0 i Hfar) as HF.
      rewrite Forall_forall in HF. apply HF, nth_In. rewrite dists_length, app_length. cbn. lia.
  Qed.
End Reported.

Section FPSNet.
  Variables (cs : list (list Z)) (d : nat) (ycand : option (list (list Z))).
  Hypothesis Hd : dims d cs.
  Variables (inits : list nat) (t : thr) (niter : nat) (g' : fps_g) (st : bool).
  Hypothesis Hnd : NoDup inits.
  Hypothesis Hr : in_range (length cs) inits.
  Hypothesis Hfit : fps_fit cs ycand inits t niter = (g', st).
  Hypothesis Hne : inits <> [].
  Hypothesis Hloop : (length inits < length (sel g'))%nat.

  Notation r := (nth (length (sel g') - 1) (select_distance g') None).

  Lemma fps_net :
    Forall (fun h => ext_le h r) (haus (sst g')) /\
    forall k, (length inits <= k < length (sel g'))%nat ->
      ext_le r (nth k (select_distance g') None).
  Proof.
    destruct (fps_steps_farthest cs d ycand Hd inits t niter g' st Hnd Hr Hfit Hne) as (new & Hsel & Hfar).
    destruct (exists_last (l := new)) as (new0 & i & ->);
      [intros ->; rewrite Hsel, app_nil_r in Hloop; lia|].
    exact (net_reported cs ycand _ g' inits new0 i
             (fps_fit_inv cs d ycand Hd inits t niter g' st Hnd Hr Hfit) Hsel Hfar).
  Qed.
End FPSNet.
