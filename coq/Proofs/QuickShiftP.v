(* About Model/QuickShift.v.  The ascent loop labels every point with the fixed point that its chain
   of successors arrives at ([limits]), for any successor map along which the weights grow and any
   visiting order; the successor maps of the two rules are first-strict-minimum scans ([ms]); the
   double loop of _get_gabriel_graph builds the brute-force Gabriel graph, and the shell of
   _gs_next is a ball of it.  Stdlib style, no axioms. *)
From Verif Require Import ListXP QuickShift.
Local Close Scope Z_scope.
Local Open Scope nat_scope.

Lemma Forall_upd_nth {A} (P : A -> Prop) i x l : Forall P l -> P x -> Forall P (upd_nth i x l).
Proof.
  intros H Hx. revert i. induction H as [|a l Ha Hl IH]; intros [|i]; cbn; constructor; auto.
Qed.

Lemma oget_upd_eq R i v : i < length R -> oget (upd_nth i v R) i = v.
Proof. apply nth_upd_nth_eq. Qed.
Lemma oget_upd_neq R i j v : i <> j -> oget (upd_nth i v R) j = oget R j.
Proof. apply nth_upd_nth_neq. Qed.

Lemma assign_length path v R : length (assign path v R) = length R.
Proof. revert R. induction path as [|x p IH]; intros R; cbn; [reflexivity|]. rewrite IH. apply upd_nth_length. Qed.

Lemma assign_get path v R y :
  (forall x, In x path -> x < length R) ->
  oget (assign path v R) y = if in_dec Nat.eq_dec y path then v else oget R y.
Proof.
  revert R. induction path as [|x p IH]; intros R Hp; [reflexivity|].
  cbn [assign]. rewrite IH by (intros z Hz; rewrite upd_nth_length; apply Hp; right; exact Hz).
  destruct (in_dec Nat.eq_dec y p) as [Hy|Hy], (in_dec Nat.eq_dec y (x :: p)) as [Hy'|Hy']; try reflexivity.
  - destruct Hy'. right. exact Hy.
  - destruct Hy' as [<-|Hy']; [|contradiction]. apply oget_upd_eq, Hp. left. reflexivity.
  - apply oget_upd_neq. intros ->. apply Hy'. left. reflexivity.
Qed.

(* the fuel of the inner loop: points not labelled yet *)
Definition isnone (o : option nat) : bool := match o with None => true | Some _ => false end.
Definition count_none (R : list (option nat)) : nat := length (filter isnone R).

Lemma count_none_le R : count_none R <= length R.
Proof. unfold count_none. induction R as [|a R IH]; cbn; [lia|]. destruct (isnone a); cbn; lia. Qed.

Lemma count_none_upd R i v : i < length R -> oget R i = None ->
  S (count_none (upd_nth i (Some v) R)) = count_none R.
Proof.
  unfold count_none, oget. revert i. induction R as [|a R IH]; intros [|i] Hi Hn; cbn in *; try lia.
  - subst a. reflexivity.
  - destruct (isnone a); cbn; rewrite <- (IH i) by (lia || assumption); reflexivity.
Qed.

Section Fit.
  Variable n : nat.
  Variable next : nat -> nat.
  Variable w : list Z.
  Hypothesis next_lt : forall i, i < n -> next i < n.
  Hypothesis next_up : forall i, i < n -> next i = i \/ (wt w i < wt w (next i))%Z.

  (* [r] is an iterate of [next] from [x] *)
  Definition reach (x r : nat) : Prop := exists k, r = Nat.iter k next x.

  Lemma reach_refl x : reach x x.
  Proof. exists 0. reflexivity. Qed.
  Lemma reach_step x y : reach x y -> reach x (next y).
  Proof. intros [k ->]. exists (S k). reflexivity. Qed.
  Lemma iter_add k l x : Nat.iter (k + l) next x = Nat.iter k next (Nat.iter l next x).
  Proof. induction k as [|k IH]; [reflexivity|]. exact (f_equal next IH). Qed.
  Lemma reach_trans x y z : reach x y -> reach y z -> reach x z.
  Proof. intros [k ->] [l ->]. exists (l + k). symmetry. apply iter_add. Qed.
  Lemma iter_fixed k r : next r = r -> Nat.iter k next r = r.
  Proof. intros H. induction k as [|k IH]; [reflexivity|]. exact (eq_trans (f_equal next IH) H). Qed.

  Lemma reach_lt x y : x < n -> reach x y -> y < n.
  Proof. intros Hx [k ->]. induction k as [|k IH]; [exact Hx|]. apply next_lt, IH. Qed.

  Lemma reach_up x y : x < n -> reach x y -> y = x \/ (wt w x < wt w y)%Z.
  Proof.
    intros Hx [k ->]. induction k as [|k IH]; [left; reflexivity|].
    change (Nat.iter (S k) next x) with (next (Nat.iter k next x)).
    destruct (next_up _ (reach_lt x _ Hx (ex_intro _ k eq_refl))) as [->|H]; [exact IH|].
    right. destruct IH as [E|IH]; [rewrite E in H |- *; exact H|lia].
  Qed.

  (* [r] is the fixed point that the iterates of [next] from [y] arrive at *)
  Definition lim (y r : nat) : Prop := reach y r /\ next r = r.

  Lemma limit_unique x r r' : lim x r -> lim x r' -> r = r'.
  Proof.
    intros [[k ->] Hr] [[l ->] Hr'].
    destruct (Nat.le_ge_cases k l) as [L|L].
    - replace l with ((l - k) + k) by lia. rewrite iter_add. symmetry. apply iter_fixed. exact Hr.
    - replace k with ((k - l) + l) by lia. rewrite iter_add. apply iter_fixed. exact Hr'.
  Qed.

  (* between two ascents every label present is the limit of its point *)
  Definition InvO (R : list (option nat)) : Prop :=
    length R = n /\ forall y r, y < n -> oget R y = Some r -> lim y r.
  (* during an ascent: every point of [path] leads to the unlabelled [cur] (what idxroot holds on
     the path is overwritten at the end); off the path as between ascents *)
  Definition InvA (path : list nat) (cur : nat) (R : list (option nat)) : Prop :=
    length R = n /\ cur < n /\ oget R cur = None /\ In cur path /\
    (forall x, In x path -> x < n /\ reach x cur) /\
    (forall y r, y < n -> ~ In y path -> oget R y = Some r -> lim y r).

  (* One turn of the while loop from a state satisfying [InvA]: idxroot[cur] := next cur. *)
  Section Turn.
    Variables (path : list nat) (cur : nat) (R : list (option nat)).
    Hypothesis HA : InvA path cur R.

    Lemma turn_cur : oget (upd_nth cur (Some (next cur)) R) cur = Some (next cur).
    Proof. destruct HA as (HL & Hc & _). apply oget_upd_eq. lia. Qed.

    Lemma turn_off y : ~ In y path -> oget (upd_nth cur (Some (next cur)) R) y = oget R y.
    Proof. destruct HA as (_ & _ & _ & Hin & _). intros Hy. apply oget_upd_neq. intros ->. exact (Hy Hin). Qed.

    (* the path does not come back to itself: weights grow along it *)
    Lemma turn_back : In (next cur) path -> next cur = cur.
    Proof.
      destruct HA as (_ & Hc & _ & _ & HP & _). intros Hx. destruct (HP _ Hx) as [Hx1 Hx2].
      destruct (reach_up _ cur Hx1 Hx2) as [E|L]; [symmetry; exact E|].
      destruct (next_up cur Hc) as [E|L']; [exact E|lia].
    Qed.

    (* break: the whole path is labelled with the limit of [cur] *)
    Lemma turn_close r : lim cur r ->
      let R' := assign path (Some r) (upd_nth cur (Some (next cur)) R) in
      InvO R' /\ forall y, y < n -> (oget R y <> None \/ In y path) -> oget R' y <> None.
    Proof.
      intros Hr. pose proof turn_off as H1o. destruct HA as (HL & _ & _ & _ & HP & HQ). cbv zeta.
      assert (Hpl : forall x, In x path -> x < length (upd_nth cur (Some (next cur)) R))
        by (intros x Hx; rewrite upd_nth_length, HL; apply (HP x Hx)).
      split; [split; [rewrite assign_length, upd_nth_length; exact HL|]|];
        intros y; [intros r'|]; intros Hy; rewrite assign_get by exact Hpl;
        destruct (in_dec Nat.eq_dec y path) as [Hyp|Hyp]; try rewrite (H1o y Hyp).
      - intros E. injection E as <-. split; [|apply Hr]. eapply reach_trans; [apply (HP y Hyp)|apply Hr].
      - apply HQ; assumption.
      - discriminate.
      - intros [H|H]; [exact H|contradiction].
    Qed.

    (* continue: the successor, still unlabelled, joins the path *)
    Lemma turn_extend : oget (upd_nth cur (Some (next cur)) R) (next cur) = None ->
      InvA (path ++ [next cur]) (next cur) (upd_nth cur (Some (next cur)) R).
    Proof.
      intros Er. pose proof turn_off as H1o. destruct HA as (HL & Hc & _ & _ & HP & HQ).
      split; [rewrite upd_nth_length; exact HL|]. split; [apply next_lt, Hc|]. split; [exact Er|].
      split; [apply in_or_app; right; left; reflexivity|]. split.
      - intros x Hx. apply in_app_or in Hx. destruct Hx as [Hx|[<-|[]]].
        + split; [apply (HP x Hx)|apply reach_step, (HP x Hx)].
        + split; [apply next_lt, Hc|apply reach_refl].
      - intros y r Hy Hyp. assert (Hyp' : ~ In y path) by (intros H; apply Hyp, in_or_app; left; exact H).
        rewrite (H1o y Hyp'). apply HQ; assumption.
    Qed.
  End Turn.

  Lemma ascend_inv f : forall cur path R,
    InvA path cur R -> count_none R <= f ->
    exists R', ascend next f cur path R = Some R' /\ InvO R' /\
               forall y, y < n -> (oget R y <> None \/ In y path) -> oget R' y <> None.
  Proof.
    induction f as [|f IH]; intros cur path R HA Hf; pose proof HA as (HL & Hc & HN & _ & _ & HQ).
    - exfalso. pose proof (count_none_upd R cur 0 ltac:(lia) HN). lia.
    - cbn [ascend]. rewrite HN. cbn [opt_eqb]. unfold root_of. rewrite (turn_cur path cur R HA).
      destruct (oget (upd_nth cur (Some (next cur)) R) (next cur)) as [r|] eqn:Er.
      + (* the successor carries its limit, or is [cur] itself *)
        eexists. split; [reflexivity|]. apply (turn_close path cur R HA).
        destruct (in_dec Nat.eq_dec (next cur) path) as [Hx|Hx].
        * apply (turn_back path cur R HA) in Hx. pose proof (turn_cur path cur R HA) as T.
          rewrite Hx in Er, T. rewrite T in Er. injection Er as <-. split; [apply reach_refl|exact Hx].
        * rewrite (turn_off path cur R HA _ Hx) in Er. destruct (HQ _ r (next_lt cur Hc) Hx Er) as [G1 G2].
          split; [|exact G2]. eapply reach_trans; [apply reach_step, reach_refl|exact G1].
      + destruct (IH _ _ _ (turn_extend path cur R HA Er)) as (R' & E' & I' & L').
        * pose proof (count_none_upd R cur (next cur) ltac:(lia) HN). lia.
        * exists R'. split; [exact E'|]. split; [exact I'|].
          intros y Hy Hlab. apply L'; [exact Hy|].
          destruct (in_dec Nat.eq_dec y path) as [Hyp|Hyp]; [right; apply in_or_app; left; exact Hyp|].
          left. rewrite (turn_off path cur R HA y Hyp). destruct Hlab as [H|H]; [exact H|contradiction].
  Qed.

  Lemma InvO_init : InvO (repeat None n).
  Proof. split; [apply repeat_length|]. intros y r _ H. unfold oget in H. rewrite nth_repeat in H. discriminate. Qed.

  Lemma fit_step_inv R i : i < n -> InvO R ->
    exists R', fit_step n next (Some R) i = Some R' /\ InvO R' /\
               forall y, y < n -> (oget R y <> None \/ y = i) -> oget R' y <> None.
  Proof.
    intros Hi [HL HI]. cbn [fit_step]. destruct (oget R i) as [r|] eqn:Ei.
    - exists R. split; [reflexivity|]. split; [split; assumption|].
      intros y Hy [H| ->]; [exact H|rewrite Ei; discriminate].
    - destruct (ascend_inv n i [i] R) as (R' & E & I & L).
      + split; [exact HL|]. split; [exact Hi|]. split; [exact Ei|]. split; [left; reflexivity|]. split.
        * intros x [<-|[]]. split; [exact Hi|apply reach_refl].
        * intros y r Hy _. apply HI, Hy.
      + rewrite <- HL. apply count_none_le.
      + exists R'. split; [exact E|]. split; [exact I|].
        intros y Hy [H| ->]; apply L; try assumption; [left; exact H|right; left; reflexivity].
  Qed.

  Lemma fit_fold_inv l : forall R, (forall i, In i l -> i < n) -> InvO R ->
    exists R', fold_left (fit_step n next) l (Some R) = Some R' /\ InvO R' /\
               forall y, y < n -> (oget R y <> None \/ In y l) -> oget R' y <> None.
  Proof.
    induction l as [|i l IH]; intros R Hl I.
    - exists R. split; [reflexivity|]. split; [exact I|]. intros y Hy [H|[]]. exact H.
    - cbn [fold_left].
      destruct (fit_step_inv R i (Hl i (or_introl eq_refl)) I) as (R1 & E1 & I1 & L1). rewrite E1.
      destruct (IH R1 (fun j Hj => Hl j (or_intror Hj)) I1) as (R' & E' & I' & L').
      exists R'. split; [exact E'|]. split; [exact I'|].
      intros y Hy [H|[<-|H]]; apply L'; try assumption.
      + left. apply L1; [exact Hy|left; exact H].
      + left. apply L1; [exact Hy|right; reflexivity].
      + right. exact H.
  Qed.

  (* at the end every point is labelled, with its limit *)
  Definition limits (R : list (option nat)) : Prop :=
    length R = n /\ forall i, i < n -> exists r, oget R i = Some r /\ lim i r.

  Lemma limits_eq R R' : limits R -> limits R' -> R = R'.
  Proof.
    intros [HL HS] [HL' HS']. apply (nth_ext R R' None None); [congruence|]. intros i Hi. rewrite HL in Hi.
    destruct (HS i Hi) as (r & A & B), (HS' i Hi) as (r' & A' & B').
    fold (oget R i). fold (oget R' i). rewrite A, A'. f_equal. exact (limit_unique i r r' B B').
  Qed.

  Lemma limits_limit R i r : limits R -> i < n -> lim i r -> oget R i = Some r.
  Proof. intros [_ HS] Hi H. destruct (HS i Hi) as (r' & A & B). rewrite A. f_equal. exact (limit_unique i r' r B H). Qed.

  Lemma limits_iter R i : limits R -> i < n ->
    (exists r k, oget R i = Some r /\ r = Nat.iter k next i /\ next r = r) /\
    (forall r k, r = Nat.iter k next i -> next r = r -> oget R i = Some r).
  Proof.
    intros L Hi. split.
    - destruct (proj2 L i Hi) as (r & A & [k K] & B). exists r, k. auto.
    - intros r k Hr Hf. apply limits_limit; [exact L|exact Hi|]. split; [exists k; exact Hr|exact Hf].
  Qed.

  Lemma limits_centre R c : limits R -> c < n -> (oget R c = Some c <-> next c = c).
  Proof.
    intros L Hc. split.
    - intros E. destruct (proj2 L c Hc) as (r & A & _ & B). rewrite E in A. injection A as <-. exact B.
    - intros H. apply limits_limit; [exact L|exact Hc|split; [apply reach_refl|exact H]].
  Qed.

  Lemma limits_label R i : limits R -> i < n ->
    exists r, oget R i = Some r /\ r < n /\ next r = r /\ oget R r = Some r /\ reach i r.
  Proof.
    intros L Hi. destruct (proj2 L i Hi) as (r & A & B & C). exists r.
    assert (Hr : r < n) by exact (reach_lt i r Hi B).
    split; [exact A|]. split; [exact Hr|]. split; [exact C|]. split; [|exact B].
    apply limits_centre; assumption.
  Qed.

  Lemma limits_centres R c : limits R -> (In c (centres R) <-> c < n /\ next c = c).
  Proof.
    intros L. unfold centres. rewrite filter_In, in_seq, (proj1 L). split.
    - intros [Hc Hb]. assert (Hc' : c < n) by lia. split; [exact Hc'|].
      apply (limits_centre R c L Hc'). destruct (oget R c) as [r|]; cbn in Hb; [|discriminate].
      apply Nat.eqb_eq in Hb. congruence.
    - intros [Hc Hf]. split; [lia|]. apply (limits_centre R c L Hc) in Hf. rewrite Hf. cbn.
      apply Nat.eqb_refl.
  Qed.

  Theorem fit_order_limits order :
    (forall i, In i order -> i < n) -> (forall i, i < n -> In i order) ->
    exists R, fold_left (fit_step n next) order (Some (repeat None n)) = Some R /\ limits R.
  Proof.
    intros Hlt Hall.
    destruct (fit_fold_inv order (repeat None n) Hlt InvO_init) as (R & E & [HL HI] & L).
    exists R. split; [exact E|]. split; [exact HL|]. intros i Hi.
    destruct (oget R i) as [r|] eqn:Er; [|destruct (L i Hi (or_intror (Hall i Hi)) Er)].
    exists r. split; [reflexivity|]. exact (HI i r Hi Er).
  Qed.

  Lemma fit_with_limits : exists R, fit_with n next = Some R /\ limits R.
  Proof. apply fit_order_limits; intros i; rewrite in_seq; lia. Qed.

  Lemma fit_with_some R : fit_with n next = Some R -> limits R.
  Proof. destruct fit_with_limits as (R' & E & L). rewrite E. intros H. injection H as <-. exact L. Qed.

  Lemma fit_with_terminates : fit_with n next <> None.
  Proof. destruct fit_with_limits as (R & E & _). congruence. Qed.

  Theorem fit_with_spec :
    exists R, fit_with n next = Some R /\ length R = n /\
      forall i, i < n -> exists r, oget R i = Some r /\ r < n /\ next r = r /\ oget R r = Some r /\ reach i r.
  Proof.
    destruct fit_with_limits as (R & E & L). exists R. split; [exact E|]. split; [apply L|].
    intros i. apply limits_label. exact L.
  Qed.

  Theorem fit_any_order order :
    (forall i, In i order -> i < n) -> (forall i, i < n -> In i order) ->
    fold_left (fit_step n next) order (Some (repeat None n)) = fit_with n next.
  Proof.
    intros H1 H2. destruct (fit_order_limits order H1 H2) as (R & E & L), fit_with_limits as (R' & E' & L').
    rewrite E, E'. f_equal. apply limits_eq; assumption.
  Qed.
End Fit.

(* Renaming: if [p] carries one successor map to another, it carries limits to limits, hence
   labels to labels ([p] need not be injective) *)
Lemma limits_conj n next next' (p : nat -> nat) R R' :
  (forall i, i < n -> next i < n) -> (forall i, i < n -> p i < n) ->
  (forall i, i < n -> next' (p i) = p (next i)) ->
  limits n next R -> limits n next' R' ->
  forall i, i < n -> oget R' (p i) = option_map p (oget R i).
Proof.
  intros Hlt Hp Heq L L' i Hi. destruct (proj2 L i Hi) as (r & A & [k ->] & C). rewrite A. cbn [option_map].
  assert (K : forall k, Nat.iter k next i < n /\ Nat.iter k next' (p i) = p (Nat.iter k next i)).
  { clear k C A. induction k as [|k [IH1 IH2]]; [split; [exact Hi|reflexivity]|].
    split; [apply Hlt, IH1|]. change (next' (Nat.iter k next' (p i)) = p (next (Nat.iter k next i))).
    rewrite IH2. apply Heq, IH1. }
  apply (limits_limit n next' R' (p i)); [exact L'|apply Hp, Hi|]. split.
  - exists k. symmetry. apply K.
  - rewrite Heq by apply K. rewrite C. reflexivity.
Qed.

Lemma fit_with_ext n next next' w :
  (forall i, i < n -> next i < n) ->
  (forall i, i < n -> next i = i \/ (wt w i < wt w (next i))%Z) ->
  (forall i, i < n -> next' i = next i) ->
  fit_with n next' = fit_with n next.
Proof.
  intros H1 H2 E.
  assert (H1' : forall i, i < n -> next' i < n) by (intros i Hi; rewrite E by exact Hi; apply H1; exact Hi).
  assert (H2' : forall i, i < n -> next' i = i \/ (wt w i < wt w (next' i))%Z)
    by (intros i Hi; rewrite E by exact Hi; apply H2; exact Hi).
  destruct (fit_with_limits n next w H1 H2) as (R & ER & L).
  destruct (fit_with_limits n next' w H1' H2') as (R' & ER' & L').
  rewrite ER, ER'. f_equal. apply (nth_ext R' R None None); [rewrite (proj1 L), (proj1 L'); reflexivity|].
  intros i Hi. rewrite (proj1 L') in Hi.
  pose proof (limits_conj n next next' (fun i => i) R R' H1 (fun _ H => H) E L L' i Hi) as H.
  fold (oget R' i). fold (oget R i). rewrite H. destruct (oget R i); reflexivity.
Qed.

(* The order in which C16's statements are written, through the model's [ext_lt].  [ListXP.ext_le]
   (defined by cases, for the selectors) is the same relation; from here on [ext_le] is this one. *)
Definition ext_le (a b : ExtZ) : Prop := ext_lt b a = false.

Lemma ext_lt_min2 a b c : ext_lt a (ext_min2 b c) = ext_lt a b && ext_lt a c.
Proof.
  destruct a as [x|], b as [y|], c as [z|]; cbn; try reflexivity.
  - destruct (Z.min_spec y z) as [[H ->]|[H ->]]; destruct (x <? y)%Z eqn:E1, (x <? z)%Z eqn:E2; try reflexivity;
      rewrite ?Z.ltb_lt, ?Z.ltb_ge in *; lia.
  - now rewrite andb_true_r.
Qed.

Lemma ext_lt_finite a b : ext_lt a b = true -> a <> None.
Proof. destruct a; [discriminate|discriminate]. Qed.
Lemma ext_lt_none a : a <> None -> ext_lt a None = true.
Proof. destruct a; [reflexivity|congruence]. Qed.
Lemma ext_lt_irrefl a : ext_lt a a = false.
Proof. destruct a as [x|]; cbn; [apply Z.ltb_irrefl|reflexivity]. Qed.
Lemma ext_lt_le_trans a b c : ext_lt a b = true -> ext_le b c -> ext_lt a c = true.
Proof.
  unfold ext_le. destruct a as [x|], b as [y|], c as [z|]; cbn; try congruence; rewrite ?Z.ltb_lt, ?Z.ltb_ge; lia.
Qed.
Lemma ext_lt_le a b : ext_lt a b = true -> ext_le a b.
Proof. unfold ext_le. destruct a as [x|], b as [y|]; cbn; try congruence; rewrite ?Z.ltb_lt, ?Z.ltb_ge; lia. Qed.
Lemma ext_le_antisym a b : ext_le a b -> ext_le b a -> a = b.
Proof.
  unfold ext_le. destruct a as [x|], b as [y|]; cbn; try discriminate; try reflexivity.
  rewrite !Z.ltb_ge. intros H1 H2. f_equal. lia.
Qed.

Lemma ext_add_comm a b : ext_add a b = ext_add b a.
Proof. destruct a, b; cbn; try reflexivity. f_equal. lia. Qed.

(* The loop shared by _qs_next, _gs_next and np.argmin:
     for j in range(m): if c j and f j < v: i, v = j, f j      starting from (init, inf) *)
Section MinScan.
  Variable c : nat -> bool.
  Variable f : nat -> ExtZ.
  Variable init : nat.

  Definition ms_step (st : nat * ExtZ) (j : nat) : nat * ExtZ :=
    if c j && ext_lt (f j) (snd st) then (j, f j) else st.
  Definition ms (m : nat) : nat * ExtZ := fold_left ms_step (seq 0 m) (init, None).

  Lemma ms_cases m :
    (ms m = (init, None) /\ forall j, j < m -> c j = true -> f j = None) \/
    (fst (ms m) < m /\ c (fst (ms m)) = true /\ snd (ms m) = f (fst (ms m)) /\ snd (ms m) <> None /\
     forall j, j < m -> c j = true ->
       ext_le (snd (ms m)) (f j) /\ (j < fst (ms m) -> ext_lt (snd (ms m)) (f j) = true)).
  Proof.
    induction m as [|m IH]; [left; split; [reflexivity|lia]|].
    unfold ms in *. rewrite seq_S, fold_left_app. cbn [fold_left plus].
    set (st := fold_left ms_step (seq 0 m) (init, None)) in *. unfold ms_step.
    destruct (c m && ext_lt (f m) (snd st)) eqn:E.
    - apply andb_prop in E. destruct E as [Ec El]. right. cbn [fst snd].
      split; [lia|]. split; [exact Ec|]. split; [reflexivity|]. split; [exact (ext_lt_finite _ _ El)|].
      intros j Hj Cj. destruct (Nat.eq_dec j m) as [->|ne]; [split; [apply ext_lt_irrefl|lia]|].
      assert (L : ext_lt (f m) (f j) = true).
      { destruct IH as [[E0 H0]|(_ & _ & _ & _ & H1)].
        - rewrite (H0 j ltac:(lia) Cj). apply ext_lt_none. exact (ext_lt_finite _ _ El).
        - eapply ext_lt_le_trans; [exact El|apply H1; [lia|exact Cj]]. }
      split; [apply ext_lt_le, L|intros _; exact L].
    - destruct IH as [[E0 H0]|(H1 & H2 & H3 & H4 & H5)]; [left|right].
      + split; [exact E0|]. intros j Hj Cj. destruct (Nat.eq_dec j m) as [->|ne]; [|apply H0; [lia|exact Cj]].
        rewrite Cj, E0 in E. cbn in E. destruct (f m); [discriminate|reflexivity].
      + split; [lia|]. split; [exact H2|]. split; [exact H3|]. split; [exact H4|].
        intros j Hj Cj. destruct (Nat.eq_dec j m) as [->|ne]; [|apply H5; [lia|exact Cj]].
        rewrite Cj in E. split; [exact E|lia].
  Qed.
End MinScan.

Section Scan.
  Variable D : list (list ExtZ).
  Variable w : list Z.
  Variable idx : nat.
  Variable bound : ExtZ.
  Variable allowed : nat -> bool.
  Variable init : nat.

  Definition admb (j : nat) : bool :=
    (wt w idx <? wt w j)%Z && ext_lt (dget D idx j) bound && allowed j.
  Definition adm (j : nat) : Prop := j < length w /\ admb j = true.

  Lemma scan_ms : scan D w idx bound allowed init = fst (ms admb (dget D idx) init (length w)).
  Proof.
    unfold scan, ms. f_equal. apply fold_left_ext_in. intros st j _.
    unfold scan_step, ms_step, admb. rewrite ext_lt_min2.
    destruct (wt w idx <? wt w j)%Z, (ext_lt (dget D idx j) (snd st)), (ext_lt (dget D idx j) bound), (allowed j);
      reflexivity.
  Qed.

  Lemma admb_finite j : admb j = true -> dget D idx j <> None.
  Proof.
    unfold admb. intros H. apply andb_prop in H. destruct H as [H _]. apply andb_prop in H.
    destruct H as [_ H]. exact (ext_lt_finite _ _ H).
  Qed.

  Lemma scan_cases :
    let nx := scan D w idx bound allowed init in
    (nx = init /\ forall j, ~ adm j) \/
    (adm nx /\ forall j, adm j -> ext_le (dget D idx nx) (dget D idx j) /\
                                  (dget D idx j = dget D idx nx -> nx <= j)).
  Proof.
    cbv zeta. rewrite scan_ms.
    destruct (ms_cases admb (dget D idx) init (length w)) as [[E0 H0]|(H1 & H2 & H3 & _ & H5)]; [left|right].
    - rewrite E0. split; [reflexivity|]. intros j [Hj Aj]. exact (admb_finite j Aj (H0 j Hj Aj)).
    - split; [split; assumption|]. intros j [Hj Aj]. rewrite <- H3. destruct (H5 j Hj Aj) as [Le Lt].
      split; [exact Le|]. intros E. destruct (Nat.le_gt_cases (fst (ms admb (dget D idx) init (length w))) j) as [L|L];
        [exact L|]. specialize (Lt L). rewrite E, H3, (ext_lt_irrefl _) in Lt. discriminate.
  Qed.

  Lemma scan_spec (P : nat -> Prop) : (forall j, P j <-> adm j) ->
    let nx := scan D w idx bound allowed init in
    ((exists j, P j) ->
       P nx /\ forall j, P j -> ext_le (dget D idx nx) (dget D idx j) /\
                                (dget D idx j = dget D idx nx -> nx <= j)) /\
    ((forall j, ~ P j) -> nx = init).
  Proof.
    intros HP. cbv zeta. destruct scan_cases as [[E Hno]|[A B]]; split.
    - intros [j Hj]. destruct (Hno j). apply HP, Hj.
    - intros _. exact E.
    - intros _. split; [apply HP, A|]. intros j Hj. apply B, HP, Hj.
    - intros Hno. destruct (Hno _ (proj2 (HP _) A)).
  Qed.

  Lemma scan_range : init < length w -> scan D w idx bound allowed init < length w.
  Proof. intros Hi. destruct scan_cases as [[-> _]|[[H _] _]]; assumption. Qed.

  Lemma adm_weight j : adm j -> (wt w idx < wt w j)%Z.
  Proof.
    intros [_ H]. unfold admb in H. apply andb_prop in H. destruct H as [H _]. apply andb_prop in H.
    destruct H as [H _]. apply Z.ltb_lt. exact H.
  Qed.

  Lemma scan_weight :
    let nx := scan D w idx bound allowed init in nx = init \/ (wt w idx < wt w nx)%Z.
  Proof. cbv zeta. destruct scan_cases as [[E _]|[A _]]; [left; exact E|right; exact (adm_weight _ A)]. Qed.
End Scan.

Section Argmin.
  Variable row : list ExtZ.
  Let rget (j : nat) : ExtZ := nth j row None.

  Lemma argmin_row_ms : row <> [] -> argmin_row row = fst (ms (fun _ => true) rget 0 (length row)).
  Proof.
    intros Hne. unfold argmin_row, ms.
    destruct (length row) as [|m] eqn:El; [destruct row; [congruence|discriminate]|].
    replace (S m - 1) with m by lia. cbn [seq fold_left].
    replace (ms_step (fun _ => true) rget (0, None) 0) with (0, rget 0)
      by (unfold ms_step; cbn [andb snd]; destruct (rget 0); reflexivity).
    reflexivity.
  Qed.

  Lemma argmin_row_spec : row <> [] ->
    let nn := argmin_row row in
    nn < length row /\
    forall j, j < length row -> ext_le (rget nn) (rget j) /\ (j < nn -> ext_lt (rget nn) (rget j) = true).
  Proof.
    intros Hne. cbv zeta. rewrite (argmin_row_ms Hne).
    assert (0 < length row) by (destruct row; [congruence|cbn; lia]).
    destruct (ms_cases (fun _ => true) rget 0 (length row)) as [[E0 H0]|(H1 & _ & H3 & _ & H5)].
    - rewrite E0. cbn [fst]. split; [assumption|]. intros j Hj. split; [|lia].
      rewrite (H0 0), (H0 j) by auto. reflexivity.
    - split; [exact H1|]. intros j Hj. rewrite <- H3. apply H5; auto.
  Qed.
End Argmin.

Definition sq_mat {A} (n : nat) (M : list (list A)) : Prop :=
  length M = n /\ Forall (fun r => length r = n) M.

Lemma sq_mat_row {A} n (M : list (list A)) c : sq_mat n M -> c < n -> length (nth c M []) = n.
Proof.
  intros [HL HF] Hc. rewrite Forall_forall in HF. apply HF. apply nth_In. lia.
Qed.

Lemma argmin_lt n D c : sq_mat n D -> c < n -> argmin_row (nth c D []) < n.
Proof.
  intros HD Hc. pose proof (sq_mat_row n D c HD Hc) as HL.
  assert (Hne : nth c D [] <> []) by (intros E; rewrite E in HL; cbn in HL; lia).
  destruct (argmin_row_spec (nth c D []) Hne) as [H _]. lia.
Qed.

Section Rules.
  Variable n : nat.
  Variable D : list (list ExtZ).
  Variable w : list Z.
  Hypothesis HD : sq_mat n D.
  Hypothesis Hw : length w = n.

  Variable cut : list Z.
  Definition adm_cut (c j : nat) : Prop :=
    j < n /\ (wt w c < wt w j)%Z /\ ext_lt (dget D c j) (Some (nth c cut 0%Z)) = true.

  Lemma adm_cut_iff c j :
    adm_cut c j <-> adm D w c (Some (nth c cut 0%Z)) (fun _ => true) j.
  Proof using HD Hw.
    unfold adm_cut, adm, admb. rewrite Hw, andb_true_r, andb_true_iff, Z.ltb_lt. tauto.
  Qed.

  Lemma next_cut_lt c : c < n -> next_cut D w cut c < n.
  Proof using HD Hw.
    intros Hc. unfold next_cut, qs_next. rewrite <- Hw. apply scan_range. rewrite Hw.
    destruct (_ <? _)%Z; [apply argmin_lt; assumption|exact Hc].
  Qed.

  Lemma next_cut_up c : next_cut D w cut c = c \/ (wt w c < wt w (next_cut D w cut c))%Z.
  Proof using HD Hw.
    unfold next_cut, qs_next.
    set (nn := argmin_row (nth c D [])).
    destruct (scan_weight D w c (Some (nth c cut 0%Z)) (fun _ => true)
                          (if (wt w c <? wt w nn)%Z then nn else c)) as [E|E]; [|right; exact E].
    rewrite E. destruct (wt w c <? wt w nn)%Z eqn:L; [right; apply Z.ltb_lt; exact L|left; reflexivity].
  Qed.

  Theorem next_cut_spec c :
    let nn := argmin_row (nth c D []) in
    let nx := next_cut D w cut c in
    ((exists j, adm_cut c j) ->
       adm_cut c nx /\ forall j, adm_cut c j -> ext_le (dget D c nx) (dget D c j) /\
                                                (dget D c j = dget D c nx -> nx <= j)) /\
    ((forall j, ~ adm_cut c j) -> nx = if (wt w c <? wt w nn)%Z then nn else c).
  Proof using HD Hw. exact (scan_spec D w c _ _ _ (adm_cut c) (adm_cut_iff c)). Qed.

  Theorem centre_spec_cut c :
    next_cut D w cut c = c <->
    (forall j, ~ adm_cut c j) /\ ~ (wt w c < wt w (argmin_row (nth c D [])))%Z.
  Proof using HD Hw.
    destruct (next_cut_spec c) as [S1 S2]. cbv zeta in *. split.
    - intros E. assert (Hno : forall j, ~ adm_cut c j).
      { intros j Hj. destruct S1 as [(_ & A & _) _]; [exists j; exact Hj|]. rewrite E in A. lia. }
      split; [exact Hno|]. specialize (S2 Hno). rewrite E in S2.
      destruct (_ <? _)%Z eqn:L; [|apply Z.ltb_ge in L; lia].
      apply Z.ltb_lt in L. rewrite <- S2 in L. lia.
    - intros [Hno Hnn]. rewrite (S2 Hno). destruct (_ <? _)%Z eqn:L; [|reflexivity].
      apply Z.ltb_lt in L. contradiction.
  Qed.

  Variable shell : nat.
  Definition in_shell (c j : nat) : bool := nth j (shell_set (gabriel D) shell c) false.
  Definition adm_gab (c j : nat) : Prop :=
    j < n /\ (wt w c < wt w j)%Z /\ ext_lt (dget D c j) None = true /\ in_shell c j = true.

  Lemma adm_gab_iff c j : adm_gab c j <-> adm D w c None (in_shell c) j.
  Proof using HD Hw.
    unfold adm_gab, adm, admb. rewrite Hw, !andb_true_iff, Z.ltb_lt. tauto.
  Qed.

  Lemma next_gab_lt c : c < n -> next_gab D w shell c < n.
  Proof using HD Hw.
    intros Hc. unfold next_gab, gs_next. rewrite <- Hw. apply scan_range. rewrite Hw. exact Hc.
  Qed.

  Lemma next_gab_up c : next_gab D w shell c = c \/ (wt w c < wt w (next_gab D w shell c))%Z.
  Proof using HD Hw. unfold next_gab, gs_next. apply scan_weight. Qed.

  Theorem next_gab_spec c :
    let nx := next_gab D w shell c in
    ((exists j, adm_gab c j) ->
       adm_gab c nx /\ forall j, adm_gab c j -> ext_le (dget D c nx) (dget D c j) /\
                                                (dget D c j = dget D c nx -> nx <= j)) /\
    ((forall j, ~ adm_gab c j) -> nx = c).
  Proof using HD Hw. exact (scan_spec D w c _ _ _ (adm_gab c) (adm_gab_iff c)). Qed.

  Theorem centre_spec_gab c : next_gab D w shell c = c <-> forall j, ~ adm_gab c j.
  Proof using HD Hw.
    destruct (next_gab_spec c) as [S1 S2]. cbv zeta in *. split.
    - intros E j Hj. destruct S1 as [(_ & A & _) _]; [exists j; exact Hj|]. rewrite E in A. lia.
    - exact S2.
  Qed.

  Lemma max_weight_next c : c < n -> (forall j, j < n -> (wt w j <= wt w c)%Z) ->
    next_cut D w cut c = c /\ next_gab D w shell c = c.
  Proof using HD Hw.
    intros Hc Hmax. split.
    - apply centre_spec_cut. split.
      + intros j (Hj & Hlt & _). specialize (Hmax j Hj). lia.
      + specialize (Hmax _ (argmin_lt n D c HD Hc)). lia.
    - apply centre_spec_gab. intros j (Hj & Hlt & _). specialize (Hmax j Hj). lia.
  Qed.

  Lemma fit_cut_eq : fit_cut D w cut = fit_with n (next_cut D w cut).
  Proof using HD Hw. unfold fit_cut. rewrite (proj1 HD). reflexivity. Qed.
  Lemma fit_gab_eq : fit_gab D w shell = fit_with n (next_gab D w shell).
  Proof using HD Hw. unfold fit_gab. rewrite (proj1 HD). reflexivity. Qed.

  Lemma fit_cut_limits R : fit_cut D w cut = Some R -> limits n (next_cut D w cut) R.
  Proof using HD Hw. rewrite fit_cut_eq. exact (fit_with_some n _ w next_cut_lt (fun i _ => next_cut_up i) R). Qed.
  Lemma fit_gab_limits R : fit_gab D w shell = Some R -> limits n (next_gab D w shell) R.
  Proof using HD Hw. rewrite fit_gab_eq. exact (fit_with_some n _ w next_gab_lt (fun i _ => next_gab_up i) R). Qed.

  Lemma fit_terminates : fit_cut D w cut <> None /\ fit_gab D w shell <> None.
  Proof using HD Hw.
    rewrite fit_cut_eq, fit_gab_eq. split.
    - exact (fit_with_terminates n _ w next_cut_lt (fun i _ => next_cut_up i)).
    - exact (fit_with_terminates n _ w next_gab_lt (fun i _ => next_gab_up i)).
  Qed.

  Theorem fit_cut_spec :
    exists R, fit_cut D w cut = Some R /\ length R = n /\
      forall i, i < n -> exists r, oget R i = Some r /\ r < n /\ next_cut D w cut r = r /\
                                   oget R r = Some r /\ reach (next_cut D w cut) i r.
  Proof using HD Hw.
    rewrite fit_cut_eq. exact (fit_with_spec n _ w next_cut_lt (fun i _ => next_cut_up i)).
  Qed.

  Theorem fit_gab_spec :
    exists R, fit_gab D w shell = Some R /\ length R = n /\
      forall i, i < n -> exists r, oget R i = Some r /\ r < n /\ next_gab D w shell r = r /\
                                   oget R r = Some r /\ reach (next_gab D w shell) i r.
  Proof using HD Hw.
    rewrite fit_gab_eq. exact (fit_with_spec n _ w next_gab_lt (fun i _ => next_gab_up i)).
  Qed.
End Rules.

Lemma wt_map f w j : j < length w -> wt (map f w) j = f (wt w j).
Proof. apply nth_map_lt. Qed.

(* the weights enter the model through [<?] only *)
Section Remap.
  Variable f : Z -> Z.
  Hypothesis f_mono : forall a b, (a < b)%Z <-> (f a < f b)%Z.

  Lemma f_ltb a b : (f a <? f b)%Z = (a <? b)%Z.
  Proof.
    destruct (Z.ltb_spec a b) as [H|H], (Z.ltb_spec (f a) (f b)) as [H'|H']; try reflexivity;
      [apply f_mono in H|apply f_mono in H']; lia.
  Qed.

  Lemma scan_remap D w idx bound allowed init : idx < length w ->
    scan D (map f w) idx bound allowed init = scan D w idx bound allowed init.
  Proof.
    intros Hi. unfold scan. rewrite map_length. f_equal. apply fold_left_ext_in.
    intros st j Hj. apply in_seq in Hj. unfold scan_step.
    rewrite !wt_map by lia. rewrite f_ltb. reflexivity.
  Qed.

  Variable n : nat.
  Variable D : list (list ExtZ).
  Variable w : list Z.
  Hypothesis HD : sq_mat n D.
  Hypothesis Hw : length w = n.

  Lemma next_cut_remap cut c : c < n -> next_cut D (map f w) cut c = next_cut D w cut c.
  Proof using f_mono HD Hw.
    intros Hc. unfold next_cut, qs_next. rewrite scan_remap by lia.
    pose proof (argmin_lt n D c HD Hc) as Hn.
    rewrite !wt_map by lia. rewrite f_ltb. reflexivity.
  Qed.

  Theorem fit_cut_remap cut : fit_cut D (map f w) cut = fit_cut D w cut.
  Proof using f_mono HD Hw.
    rewrite (fit_cut_eq n D w HD Hw), (fit_cut_eq n D (map f w) HD) by (rewrite map_length; exact Hw).
    apply (fit_with_ext n _ _ w (next_cut_lt n D w HD Hw cut) (fun i _ => next_cut_up n D w HD Hw cut i)).
    intros i Hi. apply next_cut_remap, Hi.
  Qed.

  Theorem fit_gab_remap shell : fit_gab D (map f w) shell = fit_gab D w shell.
  Proof using f_mono HD Hw.
    rewrite (fit_gab_eq n D w HD Hw), (fit_gab_eq n D (map f w) HD) by (rewrite map_length; exact Hw).
    apply (fit_with_ext n _ _ w (next_gab_lt n D w HD Hw shell) (fun i _ => next_gab_up n D w HD Hw shell i)).
    intros i Hi. unfold next_gab, gs_next. apply scan_remap. lia.
  Qed.
End Remap.

Lemma sq_mat_set2 n (G : list (list bool)) i j v : sq_mat n G -> i < n -> sq_mat n (set2 G i j v).
Proof.
  intros [HL HF] Hi. unfold set2. split; [rewrite upd_nth_length; exact HL|].
  apply Forall_upd_nth; [exact HF|]. rewrite upd_nth_length. apply (sq_mat_row n G i); [split; assumption|exact Hi].
Qed.

Lemma bget_set2 n (G : list (list bool)) i j v a b : sq_mat n G -> i < n -> j < n ->
  bget (set2 G i j v) a b = if (a =? i) && (b =? j) then v else bget G a b.
Proof.
  intros HG Hi Hj. unfold bget, set2. destruct (Nat.eqb_spec a i) as [->|Hai].
  - rewrite nth_upd_nth_eq by (destruct HG; lia). destruct (Nat.eqb_spec b j) as [->|Hbj]; cbn [andb].
    + apply nth_upd_nth_eq. rewrite (sq_mat_row n G i HG Hi). exact Hj.
    + apply nth_upd_nth_neq. congruence.
  - cbn [andb]. rewrite nth_upd_nth_neq by congruence. reflexivity.
Qed.

(* The loops of _get_gabriel_graph only ever clear entries of a matrix that starts all true, so the
   result holds an entry iff no iteration wrote it: [hit i a b j] = iteration (i, j) of the inner loop
   writes (a, b); [rowhit D n a b i] = iteration i of the outer loop does (its diagonal write or an
   inner iteration whose test fires). *)
Definition hit (i a b j : nat) : bool := (a =? i) && (b =? j) || (a =? j) && (b =? i).

Lemma hit_iff i a b j : hit i a b j = true <-> (a = i /\ b = j) \/ (a = j /\ b = i).
Proof. unfold hit. rewrite orb_true_iff, !andb_true_iff, !Nat.eqb_eq. reflexivity. Qed.

Lemma fold_clear {X} n (body : list (list bool) -> X -> list (list bool)) (h : X -> nat -> nat -> bool) l :
  (forall G x, In x l -> sq_mat n G ->
     sq_mat n (body G x) /\ forall a b, bget (body G x) a b = bget G a b && negb (h x a b)) ->
  forall G, sq_mat n G ->
    sq_mat n (fold_left body l G) /\
    forall a b, bget (fold_left body l G) a b = bget G a b && negb (existsb (fun x => h x a b) l).
Proof.
  induction l as [|x l IH]; intros Hb G HG; cbn [fold_left existsb].
  - split; [exact HG|]. intros a b. now rewrite andb_true_r.
  - destruct (Hb G x (or_introl eq_refl) HG) as [S1 S2].
    destruct (IH (fun G y Hy => Hb G y (or_intror Hy)) _ S1) as [T1 T2]. split; [exact T1|].
    intros a b. rewrite T2, S2, negb_orb, andb_assoc. reflexivity.
Qed.

Lemma gab_inner_spec n (c : nat -> bool) i l G : i < n -> (forall j, In j l -> j < n) -> sq_mat n G ->
  let G' := fold_left (fun G j => if c j then set2 (set2 G i j false) j i false else G) l G in
  sq_mat n G' /\
  forall a b, bget G' a b = bget G a b && negb (existsb (fun j => c j && hit i a b j) l).
Proof.
  intros Hi Hl. apply fold_clear. clear G. intros G j Hj HG. apply Hl in Hj. destruct (c j).
  - assert (HG1 : sq_mat n (set2 G i j false)) by (apply sq_mat_set2; assumption).
    split; [apply sq_mat_set2; assumption|]. intros a b.
    rewrite (bget_set2 n _ j i false a b HG1 Hj Hi), (bget_set2 n _ i j false a b HG Hi Hj). unfold hit.
    destruct ((a =? i) && (b =? j)), ((a =? j) && (b =? i)); cbn; now rewrite ?andb_false_r, ?andb_true_r.
  - split; [exact HG|]. intros a b. now rewrite andb_true_r.
Qed.

Definition rowhit (D : list (list ExtZ)) (n a b i : nat) : bool :=
  (a =? i) && (b =? i) || existsb (fun j => gab_cond D n i j && hit i a b j) (seq i (n - i)).

Lemma gabriel_closed n D : length D = n ->
  sq_mat n (gabriel D) /\
  forall a b, a < n -> b < n -> bget (gabriel D) a b = negb (existsb (rowhit D n a b) (seq 0 n)).
Proof.
  intros HL. unfold gabriel. rewrite HL.
  destruct (fold_clear n (fun G i => gab_inner D n i (set2 G i i false)) (fun i a b => rowhit D n a b i) (seq 0 n))
    with (G := repeat (repeat true n) n) as [S1 S2].
  - intros G i Hi HG. apply in_seq in Hi.
    destruct (gab_inner_spec n (gab_cond D n i) i (seq i (n - i)) (set2 G i i false)) as [T1 T2];
      [lia|intros j Hj; apply in_seq in Hj; lia|apply sq_mat_set2; [exact HG|lia]|].
    split; [exact T1|]. intros a b. unfold gab_inner. rewrite T2, (bget_set2 n G i i false a b HG) by lia.
    unfold rowhit. destruct ((a =? i) && (b =? i)); cbn [orb negb]; now rewrite ?andb_false_r, ?andb_true_r.
  - split; [apply repeat_length|]. apply Forall_forall. intros r Hr. apply repeat_spec in Hr. subst.
    apply repeat_length.
  - split; [exact S1|]. intros a b Ha Hb. rewrite S2. unfold bget.
    rewrite (nth_indep _ [] (repeat true n)), nth_repeat, (nth_indep _ false true), nth_repeat
      by (rewrite ?repeat_length; assumption).
    reflexivity.
Qed.

Lemma gabriel_sq n D : length D = n -> sq_mat n (gabriel D).
Proof. apply gabriel_closed. Qed.

Lemma rowhit_any D n a b : a < n -> b < n ->
  existsb (rowhit D n a b) (seq 0 n) = (a =? b) || gab_cond D n (Nat.min a b) (Nat.max a b).
Proof.
  intros Ha Hb. apply Bool.eq_iff_eq_true. rewrite existsb_exists, orb_true_iff, Nat.eqb_eq. split.
  - intros (i & Hi & E). apply in_seq in Hi. unfold rowhit in E. apply orb_prop in E. destruct E as [E|E].
    + left. apply andb_prop in E. destruct E as [E1 E2]. apply Nat.eqb_eq in E1, E2. lia.
    + right. apply existsb_exists in E. destruct E as (j & Hj & E). apply in_seq in Hj.
      apply andb_prop in E. destruct E as [Ec Eh]. apply hit_iff in Eh.
      destruct Eh as [[-> ->]|[-> ->]]; [rewrite Nat.min_l, Nat.max_r by lia|rewrite Nat.min_r, Nat.max_l by lia];
        exact Ec.
  - intros [->|Ec].
    + exists b. split; [apply in_seq; lia|]. unfold rowhit. rewrite Nat.eqb_refl. reflexivity.
    + exists (Nat.min a b). split; [apply in_seq; lia|]. unfold rowhit. apply orb_true_intro. right.
      apply existsb_exists. exists (Nat.max a b). split; [apply in_seq; lia|]. rewrite Ec. apply hit_iff. lia.
Qed.

Theorem gabriel_spec n D a b : length D = n -> a < n -> b < n ->
  (bget (gabriel D) a b = true <-> a <> b /\ gab_cond D n (Nat.min a b) (Nat.max a b) = false).
Proof.
  intros HL Ha Hb. rewrite (proj2 (gabriel_closed n D HL) a b Ha Hb), rowhit_any by assumption.
  rewrite negb_true_iff, orb_false_iff, Nat.eqb_neq. reflexivity.
Qed.

Definition dsym (n : nat) (D : list (list ExtZ)) : Prop :=
  forall i j, i < n -> j < n -> dget D i j = dget D j i.

Lemma gab_cond_sym n D a b : dsym n D -> a < n -> b < n -> gab_cond D n a b = gab_cond D n b a.
Proof.
  intros Hs Ha Hb. unfold gab_cond. rewrite (Hs a b Ha Hb).
  induction (seq 0 n) as [|k l IH]; [reflexivity|]. cbn. rewrite IH, ext_add_comm. reflexivity.
Qed.

Theorem gabriel_bruteforce n D a b : length D = n -> dsym n D -> a < n -> b < n ->
  (bget (gabriel D) a b = true <->
   a <> b /\ ~ exists k, k < n /\ ext_lt (ext_add (dget D a k) (dget D b k)) (dget D a b) = true).
Proof.
  intros HL Hs Ha Hb. rewrite (gabriel_spec n D a b HL Ha Hb).
  replace (gab_cond D n (Nat.min a b) (Nat.max a b)) with (gab_cond D n a b).
  - rewrite <- not_true_iff_false. unfold gab_cond. rewrite existsb_exists.
    split; intros [H1 H2]; (split; [exact H1|]); intros (k & Hk & E); apply H2; exists k; (split; [|exact E]).
    + apply in_seq. lia.
    + apply in_seq in Hk. lia.
  - destruct (Nat.le_ge_cases a b) as [L|L].
    + rewrite Nat.min_l, Nat.max_r by lia. reflexivity.
    + rewrite Nat.min_r, Nat.max_l by lia. apply gab_cond_sym; assumption.
Qed.

Lemma nth_map2_orb u v b : length u = length v ->
  nth b (map2 orb u v) false = nth b u false || nth b v false.
Proof.
  revert v b. induction u as [|x u IH]; intros [|y v] b H; try discriminate.
  - destruct b; reflexivity.
  - destruct b as [|b]; cbn; [reflexivity|]. apply IH. now injection H.
Qed.

Section Shell.
  Variable n : nat.
  Variable G : list (list bool).
  Hypothesis HG : sq_mat n G.

  Lemma expand_inner N : forall l nn, length nn = n -> (forall j, In j l -> j < n) ->
    let r := fold_left (fun nn j => if nth j N false then map2 orb nn (nth j G []) else nn) l nn in
    length r = n /\
    forall b, nth b r false = nth b nn false || existsb (fun j => nth j N false && bget G j b) l.
  Proof.
    induction l as [|j l IH]; intros nn Hn Hl; cbv zeta.
    - cbn. split; [exact Hn|]. intros b. now rewrite orb_false_r.
    - cbn [fold_left existsb]. assert (Hj : j < n) by (apply Hl; left; reflexivity).
      assert (Hl' : forall j', In j' l -> j' < n) by (intros j' H; apply Hl; right; exact H).
      pose proof (sq_mat_row n G j HG Hj) as Hrow.
      destruct (nth j N false) eqn:Ej.
      + destruct (IH (map2 orb nn (nth j G []))) as [S1 S2];
          [rewrite map2_length, Hn, Hrow; apply Nat.min_id|exact Hl'|].
        split; [exact S1|]. intros b. rewrite S2, nth_map2_orb by congruence.
        cbn [andb]. unfold bget. now rewrite orb_assoc.
      + destruct (IH nn Hn Hl') as [S1 S2]. split; [exact S1|]. intros b. rewrite S2. reflexivity.
  Qed.

  Lemma expand_spec N : length N = n ->
    length (expand G N) = n /\
    forall b, nth b (expand G N) false = true <->
              nth b N false = true \/ exists j, j < n /\ nth j N false = true /\ bget G j b = true.
  Proof.
    intros HN. unfold expand. rewrite HN.
    destruct (expand_inner N (seq 0 n) (repeat false n)) as [S1 S2];
      [apply repeat_length|intros j Hj; apply in_seq in Hj; lia|].
    cbv zeta in *. split; [rewrite map2_length, HN, S1; apply Nat.min_id|].
    intros b. rewrite nth_map2_orb, S2, nth_repeat by congruence. cbn [orb]. rewrite orb_true_iff, existsb_exists.
    split; (intros [H|(j & Hj & H)]; [left; exact H|right; exists j]).
    - apply in_seq in Hj. apply andb_prop in H. split; [lia|exact H].
    - split; [apply in_seq; lia|apply andb_true_intro; exact H].
  Qed.

  (* a walk of k >= 1 edges whose intermediate vertices are points *)
  Inductive gpath : nat -> nat -> nat -> Prop :=
  | gpath_1 a b : bget G a b = true -> gpath 1 a b
  | gpath_S k a j b : gpath k a j -> j < n -> bget G j b = true -> gpath (S k) a b.

  Lemma gpath_inv k a b : gpath k a b ->
    match k with
    | 0 => False
    | 1 => bget G a b = true
    | S k' => exists j, gpath k' a j /\ j < n /\ bget G j b = true
    end.
  Proof.
    induction 1 as [a b H|k a j b P IH Hj H]; [exact H|].
    destruct k as [|k]; [destruct IH|]. exists j. auto.
  Qed.

  Lemma iter_expand_spec c : c < n -> forall t,
    length (Nat.iter t (expand G) (nth c G [])) = n /\
    forall b, nth b (Nat.iter t (expand G) (nth c G [])) false = true <->
              exists k, 1 <= k <= S t /\ gpath k c b.
  Proof.
    intros Hc. induction t as [|t [IL IH]].
    - cbn [Nat.iter]. split; [apply (sq_mat_row n G c HG Hc)|]. intros b. split.
      + intros H. exists 1. split; [lia|]. constructor. exact H.
      + intros (k & Hk & P). assert (k = 1) by lia. subst. exact (gpath_inv _ _ _ P).
    - change (Nat.iter (S t) (expand G) (nth c G [])) with (expand G (Nat.iter t (expand G) (nth c G []))).
      set (N := Nat.iter t (expand G) (nth c G [])) in *.
      destruct (expand_spec N IL) as [EL ES]. split; [exact EL|]. intros b. rewrite ES. split.
      + intros [H|(j & Hj & H1 & H2)].
        * apply IH in H. destruct H as (k & Hk & P). exists k. split; [lia|exact P].
        * apply IH in H1. destruct H1 as (k & Hk & P). exists (S k). split; [lia|].
          exact (gpath_S k c j b P Hj H2).
      + intros (k & Hk & P). destruct (Nat.le_gt_cases k (S t)) as [L|L].
        * left. apply IH. exists k. split; [lia|exact P].
        * assert (k = S (S t)) by lia. subst. destruct (gpath_inv _ _ _ P) as (j & P' & Hj & H).
          right. exists j. split; [exact Hj|]. split; [|exact H]. apply IH. exists (S t). split; [lia|exact P'].
  Qed.

  Lemma shell_set_spec shell c b : c < n ->
    (nth b (shell_set G shell c) false = true <-> exists k, 1 <= k <= Nat.max 1 shell /\ gpath k c b).
  Proof.
    intros Hc. unfold shell_set. destruct (iter_expand_spec c Hc (shell - 1)) as [_ H].
    rewrite H. replace (S (shell - 1)) with (Nat.max 1 shell) by lia. reflexivity.
  Qed.
End Shell.
