(* C02: the invariant of the fitted state for each form of fit (fps_fit; pcov_fit on the
   matrices a*XX^T + (4-a)*YY^T along either axis), from which the C02 statements are read. *)
From Verif Require Import ListX Greedy FPS FPSP FPSInst.

Definition dims (d : nat) (cs : list (list Z)) := Forall (fun c => length c = d) cs.
Definition in_range (n : nat) (l : list nat) := Forall (fun i => (i < n)%nat) l.

Section FPSThm.
  Variables (cs : list (list Z)) (d : nat) (ycand : option (list (list Z))).
  Hypothesis Hd : dims d cs.
  Variables (inits : list nat) (t : thr) (niter : nat) (g' : fps_g) (st : bool).
  Hypothesis Hnd : NoDup inits.
  Hypothesis Hr : in_range (length cs) inits.
  Hypothesis Hfit : fps_fit cs ycand inits t niter = (g', st).
  Notation n := (length cs).

  Lemma fps_fit_inv : FInv cs ycand (fps_dist cs) g'.
  Proof. eapply fit_FInv; eauto using fps_newdist. Qed.

  Lemma fps_steps_farthest :
    inits <> [] -> exists new, sel g' = inits ++ new /\ farthest_seq cs (fps_dist cs) inits new.
  Proof.
    intros Hne. eapply fit_steps_farthest; eauto using fps_newdist, fps_dist_nonneg, fps_dist_self.
  Qed.

  Lemma fps_distinct_in_range : NoDup (sel g') /\ in_range n (sel g').
  Proof using Hd Hnd Hr Hfit. destruct fps_fit_inv as [(A & B & _) _]. auto. Qed.
End FPSThm.

Section PCovAxis.
  Variables (axis1 : bool) (X Y : list (list Z)) (dx dy : nat) (a : Z) (ycand : option (list (list Z))).
  Hypothesis Ha : 0 <= a <= 4.
  Hypothesis HdX : dims dx X.
  Hypothesis HdY : dims dy Y.
  Hypothesis HlenY : length Y = length X.
  Variables (i0 : nat) (t : thr) (niter : nat) (g' : fps_g) (st : bool).
  Hypothesis Hi0 : (i0 < length X)%nat.
  Hypothesis Hfit : pcov_fit axis1 (kernel4 a X Y) X ycand i0 t niter = (g', st).
  Notation pd := (pcov_dist X Y a).

  Lemma pcov_fit_inv : FInv X ycand pd g'.
  Proof using HdX HdY HlenY Hi0 Hfit.
    exact (fit1_FInv X ycand _ _ pd (pcov_newdist X Y dx dy a HdX HdY HlenY axis1) i0 t _ g' st Hi0 Hfit).
  Qed.

  Lemma pcov_steps_farthest : exists new, sel g' = [i0] ++ new /\ farthest_seq X pd [i0] new.
  Proof.
    exact (fit1_farthest X ycand _ _ pd (pcov_newdist X Y dx dy a HdX HdY HlenY axis1)
             (pcov_dist_nonneg X Y a Ha) (pcov_dist_self X Y a) i0 t _ g' st Hi0 Hfit).
  Qed.
End PCovAxis.

Section PCovThm.
  Variables (X Y : list (list Z)) (dx dy : nat) (a : Z) (ycand : option (list (list Z))).
  Hypothesis Ha : 0 <= a <= 4.
  Hypothesis HdX : dims dx X.
  Hypothesis HdY : dims dy Y.
  Hypothesis HlenY : length Y = length X.
  Variables (i0 : nat) (t : thr) (niter : nat) (g' : fps_g) (st : bool).
  Hypothesis Hi0 : (i0 < length X)%nat.
  Hypothesis Hfit : pcov_fit false (kernel4 a X Y) X ycand i0 t niter = (g', st).
  Notation n := (length X).
  Notation pd := (pcov_dist X Y a).

  Lemma pcov_select_distance_true k :
    (k < length (sel g'))%nat ->
    nth k (select_distance g') None = tabmin pd (nth k (sel g') O) (firstn k (sel g')).
  Proof using HdX HdY HlenY Hi0 Hfit.
    apply (FInv_select_distance X ycand).
    exact (pcov_fit_inv false X Y dx dy a ycand HdX HdY HlenY i0 t niter g' st Hi0 Hfit).
  Qed.
End PCovThm.
