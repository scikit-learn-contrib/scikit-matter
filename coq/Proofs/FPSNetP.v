(* C02: the selections of farthest point sampling form an r-net.

   With r the distance at which the LAST selection was made (get_select_distance()[-1]):
   - covering: just before that selection every candidate was within r of the selected set
     (so r is the covering radius of the selections made before the last one), and
   - packing: every selection made by the loop was, when it was made, at distance >= r
     from everything selected before it; since the i-th and the j-th selection (i < j) are
     at distance >= the select distance of the j-th, any two selections made by the loop
     are at distance >= r from each other.
   Both hold for ANY [farthest_seq], hence for every fit / chain of warm starts for which
   C02_step_farthest / C02_warm_chain give one; nothing is assumed about [dist]. *)
From Verif Require Import ListX ListXP FPSP.

Section Net.
  Variable cs : list (list Z).
  Variable dist : nat -> nat -> Z.
  Notation n := (length cs).
  Notation tabmin := (tabmin dist).
  Notation farthest_seq := (farthest_seq cs dist).
  Notation is_farthest := (is_farthest cs dist).
  Notation dists := (dists dist).

  Lemma farthest_seq_last s new i :
    farthest_seq s (new ++ [i]) -> farthest_seq s new /\ is_farthest (s ++ new) i.
  Proof using.
    revert s; induction new as [|a new IH]; intros s H; cbn in *.
    - destruct H as [H _]. rewrite app_nil_r. split; [exact I|exact H].
    - destruct H as [Ha Hrest]. destruct (IH _ Hrest) as [H1 H2].
      rewrite <- app_assoc in H2. cbn in H2. split; [split; assumption|exact H2].
  Qed.

  Lemma dists_app s new i : dists s (new ++ [i]) = dists s new ++ [tabmin i (s ++ new)].
  Proof using.
    revert s; induction new as [|a new IH]; intros s; cbn.
    - now rewrite app_nil_r.
    - rewrite IH, <- app_assoc. reflexivity.
  Qed.

  Lemma nonincreasing_last_le l r :
    nonincreasing (l ++ [r]) -> Forall (fun d => ext_le r d) (l ++ [r]).
  Proof using.
    induction l as [|a l IH]; cbn [app]; intros H; [repeat constructor; apply ext_le_refl|].
    destruct (l ++ [r]) as [|b t] eqn:E; [destruct l; discriminate|]. destruct H as [Hba Ht].
    specialize (IH Ht). constructor; [|exact IH].
    inversion IH as [|? ? Hrb _]; subst. exact (ext_le_trans _ _ _ Hrb Hba).
  Qed.

  (* covering: before the last selection every candidate is within r of the selected set *)
  Theorem farthest_net_covering s new i :
    farthest_seq s (new ++ [i]) ->
    forall j, (j < n)%nat -> ext_le (tabmin j (s ++ new)) (tabmin i (s ++ new)).
  Proof.
    intros H. destruct (farthest_seq_last _ _ _ H) as [_ (_ & _ & Hmax & _)]. exact Hmax.
  Qed.

  (* packing: every selection of the loop was made at distance >= r *)
  Theorem farthest_net_packing s new i :
    farthest_seq s (new ++ [i]) ->
    Forall (fun d => ext_le (tabmin i (s ++ new)) d) (dists s (new ++ [i])).
  Proof.
    intros H. rewrite dists_app. apply nonincreasing_last_le.
    rewrite <- dists_app. apply (farthest_dists_nonincreasing cs dist). exact H.
  Qed.

  (* after the last selection the covering radius has not grown: the table that
     get_distance() reports (C02_table_true) is bounded by r everywhere *)
  Theorem farthest_net_covering_after s new i :
    farthest_seq s (new ++ [i]) ->
    forall j, (j < n)%nat -> ext_le (tabmin j ((s ++ new) ++ [i])) (tabmin i (s ++ new)).
  Proof.
    intros H j Hj. rewrite tabmin_app.
    eapply ext_le_trans; [apply ext_min_le_l|]. eapply farthest_net_covering; eassumption.
  Qed.
End Net.
