(* C12 — statements about the object state machines of Model/KernelObj.v, for every interpretation
   of the numerics. *)
From Coq Require Import List Bool Arith.
From Verif Require Import KernelObj.
Import ListNotations.

Section KnObjP.
  Variable T : Type.
  Variables nrows ncols : T -> nat.
  Variable norm_w : T -> T.
  Variable fit_num : bool -> bool -> T -> option T -> T * T * T.
  Variable tr_num : bool -> option T -> T -> T -> T -> T -> T.

  Notation obj := (kn_obj T).
  Notation do_fit := (kn_do_fit T nrows ncols norm_w fit_num).
  Notation do_transform := (kn_do_transform T nrows ncols tr_num).
  Notation step := (kn_step T nrows ncols norm_w fit_num tr_num).
  Notation run := (kn_run T nrows ncols norm_w fit_num tr_num).
  Notation w_ok := (kn_w_ok T nrows).

  (* a successful fit overwrites every fitted attribute: the object afterwards is the one a
     NEW estimator with the same constructor flags would be after the same fit *)
  Lemma kn_refit_fresh (o : obj) K w :
    w_ok K w = true ->
    do_fit o K w = do_fit (kn_new T (o_center T o) (o_trace T o)) K w.
  Proof.
    intros Hw; unfold kn_do_fit; rewrite Hw; cbn [o_center o_trace kn_new].
    destruct (fit_num _ _ K _) as [[r a] s]; reflexivity.
  Qed.

  Lemma kn_fit_accepts (o : obj) K w :
    w_ok K w = true -> snd (do_fit o K w) = RDone.
  Proof.
    intros Hw; unfold kn_do_fit; rewrite Hw.
    destruct (fit_num _ _ K _) as [[r a] s]; reflexivity.
  Qed.

  (* ... hence what a history does from a successful fit_transform on does not depend on what
     happened before it *)
  Lemma kn_history_irrelevant_ft (h tail : list (kn_op T)) (o0 : obj) K w :
    w_ok K w = true ->
    let o := fst (run o0 h) in
    run o (OFitTransform K w :: tail)
    = run (kn_new T (o_center T o) (o_trace T o)) (OFitTransform K w :: tail).
  Proof.
    intros Hw o; cbn [kn_run kn_step]. rewrite (kn_refit_fresh o K w Hw). reflexivity.
  Qed.

  Lemma kn_rejected_fit (o : obj) K w :
    w_ok K w = false ->
    let (o1, r) := do_fit o K w in
    r = RRaise /\ o_attrs T o1 = o_attrs T o /\ o_center T o1 = o_center T o /\ o_trace T o1 = o_trace T o.
  Proof. intros Hw; unfold kn_do_fit; rewrite Hw; cbn; auto. Qed.

  Lemma kn_transform_pure (o : obj) Kt : fst (do_transform o Kt) = o.
  Proof.
    unfold kn_do_transform. destruct (o_attrs T o) as [a|]; [|reflexivity].
    destruct (o_nfeat T o) as [nf|]; [|reflexivity].
    match goal with |- context [if ?b then _ else _] => destruct b end; reflexivity.
  Qed.

  Lemma kn_unfitted_raises (o : obj) Kt :
    o_attrs T o = None -> snd (do_transform o Kt) = RRaise.
  Proof. intros H; unfold kn_do_transform; rewrite H; reflexivity. Qed.

  Lemma kn_fit_transform_steps (o : obj) K w :
    w_ok K w = true ->
    let (o2, rs) := run o [OFit K w; OTransform K] in
    run o [OFitTransform K w] = (o2, [last rs RDone]).
  Proof.
    intros Hw; cbn [kn_run kn_step].
    pose proof (kn_fit_accepts o K w Hw) as Ha.
    destruct (do_fit o K w) as [o1 r]; cbn [snd] in Ha; subst r.
    destruct (do_transform o1 K) as [o2 r2]; cbn; reflexivity.
  Qed.

  Lemma kn_set_keeps_attrs (o : obj) c t :
    o_attrs T (fst (step o (OSet c t))) = o_attrs T o.
  Proof. reflexivity. Qed.
End KnObjP.

Section SkObjP.
  Variables T C H : Type.
  Variables nrows ncols : T -> nat.
  Variable sfit_num : bool -> bool -> C -> T -> T -> H -> option T -> T * T.
  Variable str_num : T -> T -> T -> T.

  Notation obj := (sk_obj T C).
  Notation do_fit := (sk_do_fit T C nrows ncols H sfit_num).
  Notation do_transform := (sk_do_transform T C ncols str_num).
  Notation run := (sk_run T C nrows ncols H sfit_num str_num).
  Notation fit_ok := (sk_fit_ok T nrows ncols).

  Lemma sk_refit_fresh (o : obj) Knm Kmm h w :
    fit_ok Knm Kmm w = true ->
    do_fit o Knm Kmm h w
    = do_fit (sk_new T C (so_center T C o) (so_trace T C o) (so_rcond T C o)) Knm Kmm h w.
  Proof.
    intros Hw; unfold sk_do_fit; rewrite Hw; cbn [so_center so_trace so_rcond sk_new].
    destruct (sfit_num _ _ _ Knm Kmm h w) as [r s]; reflexivity.
  Qed.

  (* the three shape checks precede every assignment: a rejected fit changes nothing *)
  Lemma sk_rejected_fit (o : obj) Knm Kmm h w :
    fit_ok Knm Kmm w = false -> do_fit o Knm Kmm h w = (o, RRaise).
  Proof. intros Hw; unfold sk_do_fit; rewrite Hw; reflexivity. Qed.

  Lemma sk_transform_pure (o : obj) Kt : fst (do_transform o Kt) = o.
  Proof.
    unfold sk_do_transform. destruct (so_attrs T C o) as [a|]; [|reflexivity].
    match goal with |- context [if ?b then _ else _] => destruct b end; reflexivity.
  Qed.

  Lemma sk_transform_accepts (o : obj) Kt a :
    so_attrs T C o = Some a ->
    snd (do_transform o Kt) = if Nat.eqb (ncols Kt) (s_nact T a)
                              then ROut (str_num (s_rows T a) (s_scale T a) Kt) else RRaise.
  Proof.
    intros Ha; unfold sk_do_transform; rewrite Ha.
    destruct (Nat.eqb (ncols Kt) (s_nact T a)); reflexivity.
  Qed.

  Lemma sk_fit_transform_steps (o : obj) Knm Kmm h w :
    fit_ok Knm Kmm w = true ->
    let (o2, rs) := run o [SFit Knm Kmm h w; STransform Knm] in
    run o [SFitTransform Knm Kmm h w] = (o2, [last rs RDone]).
  Proof.
    intros Hw; cbn [sk_run sk_step]. unfold sk_do_fit; rewrite Hw.
    destruct (sfit_num _ _ _ Knm Kmm h w) as [r s].
    match goal with |- context [sk_do_transform ?a ?b ?c ?d ?e ?f] =>
      destruct (sk_do_transform a b c d e f) as [o2 r2] end.
    cbn; reflexivity.
  Qed.
End SkObjP.
