(* C07, layer D: theorems about the refresh schedule / zeroing / arg-max model of
   Model/CURSched.v.  Stdlib style.

   The loop state is followed through the stream R of refresh vectors by one invariant,
   [on_vec c g]: the selector holds vector number c of R, zeroed at the items selected so far, and
   the vectors after c are still to come.  A cold start and a warm start put the state on a vector
   ([on_vec_cold], [on_vec_warm]), a selection moves it by the refresh rule ([on_vec_post]), and
   [stage] follows a whole loop. *)
From Verif Require Import ListX Greedy ListXP GreedyP CURSched.

Lemma skipn_cons_nth {A} (d : A) l c :
  (c < length l)%nat -> skipn c l = nth c l d :: skipn (S c) l.
Proof.
  revert c; induction l as [|a l IH]; intros [|c] H; cbn in *; try lia; [reflexivity|].
  apply IH. lia.
Qed.

(* the invariant only reads the result buffers and the scorer state *)
Lemma GInv_sst St cand ycand (P Q : St -> Prop) g g' :
  GInv St cand ycand P g -> sel g' = sel g -> xsel g' = xsel g -> ysel g' = ysel g ->
  Q (sst g') -> GInv St cand ycand Q g'.
Proof.
  intros (A & B & C & D & _) E1 E2 E3 HQ. unfold GInv. rewrite E1, E2, E3. auto.
Qed.

Lemma div_succ re m : re <> O ->
  (S m / re = m / re + if refresh_due re (S m) then 1 else 0)%nat.
Proof.
  intros Hre. unfold refresh_due. destruct (Nat.eqb_spec re 0) as [|_]; [contradiction|]. cbn [negb andb].
  pose proof (Nat.div_mod m re Hre) as E. pose proof (Nat.mod_upper_bound m re Hre) as Hb.
  set (q := (m / re)%nat) in *. set (r := (m mod re)%nat) in *. clearbody q r.
  destruct (Nat.eq_dec (S r) re) as [Hr|Hr].
  - rewrite <- (Nat.mod_unique (S m) re (S q) 0) by lia.
    symmetry. apply (Nat.div_unique (S m) re _ 0); cbn [Nat.eqb]; lia.
  - rewrite <- (Nat.mod_unique (S m) re q (S r)) by lia.
    symmetry. apply (Nat.div_unique (S m) re _ (S r)); cbn [Nat.eqb]; lia.
Qed.

Lemma due_re0 m : refresh_due 0 m = false.
Proof. reflexivity. Qed.

Lemma idx_after_ge re m c k : (c <= idx_after re m c k)%nat.
Proof.
  revert m c; induction k as [|k IH]; intros m c; cbn; [lia|].
  destruct (refresh_due re (S m)); [specialize (IH (S m) (S c)); lia|apply IH].
Qed.

Lemma idx_after_mono re m c k k' : (k <= k')%nat -> (idx_after re m c k <= idx_after re m c k')%nat.
Proof.
  revert m c k'; induction k as [|k IH]; intros m c k' H; cbn.
  - apply idx_after_ge.
  - destruct k' as [|k']; [lia|]. cbn. apply IH. lia.
Qed.

Lemma idx_steps_length re m c k : length (idx_steps re m c k) = k.
Proof. revert m c; induction k as [|k IH]; intros m c; cbn; [reflexivity|]. now rewrite IH. Qed.

Lemma idx_steps_nth re m c k j : (j < k)%nat -> nth j (idx_steps re m c k) O = idx_after re m c j.
Proof.
  revert m c j; induction k as [|k IH]; intros m c [|j] H; try lia; [reflexivity|].
  cbn [idx_steps idx_after nth]. apply IH. lia.
Qed.

(* closed forms: with recompute_every = re <> 0 the vector in force after m selections of a
   cold start is number m / re; with recompute_every = 0 it never changes *)
Lemma idx_after_closed re m k : re <> O -> idx_after re m (m / re) k = ((m + k) / re)%nat.
Proof.
  intros Hre. revert m; induction k as [|k IH]; intros m; cbn [idx_after].
  - now rewrite Nat.add_0_r.
  - replace (if refresh_due re (S m) then S (m / re) else (m / re)%nat) with (S m / re)%nat
      by (rewrite (div_succ re m Hre); destruct (refresh_due re (S m)); lia).
    rewrite IH. f_equal. lia.
Qed.

Lemma idx_steps_closed re m k :
  re <> O -> idx_steps re m (m / re) k = map (fun j => ((m + j) / re)%nat) (seq 0 k).
Proof.
  intros Hre. apply (nth_ext _ _ O O).
  - now rewrite idx_steps_length, map_length, seq_length.
  - rewrite idx_steps_length. intros j Hj.
    rewrite idx_steps_nth, idx_after_closed, (nth_map_lt _ (seq 0 k) j O O), seq_nth
      by (rewrite ?seq_length; assumption).
    reflexivity.
Qed.

Lemma idx_after_re0 m c k : idx_after 0 m c k = c.
Proof. revert m; induction k as [|k IH]; intros m; cbn; [reflexivity|]. apply IH. Qed.

Lemma idx_steps_re0 m c k : idx_steps 0 m c k = repeat c k.
Proof. revert m; induction k as [|k IH]; intros m; cbn; [reflexivity|]. now rewrite IH. Qed.

(* number of the refresh vector in force when selection j of a cold start is made *)
Definition force_idx (re j : nat) : nat := if Nat.eqb re 0 then O else (j / re)%nat.

Lemma idx_after_force re j : idx_after re 0 0 j = force_idx re j.
Proof.
  unfold force_idx. destruct (Nat.eqb_spec re 0) as [->|Hre]; [apply idx_after_re0|].
  replace O with (0 / re)%nat at 2 by (now apply Nat.div_0_l). now rewrite idx_after_closed.
Qed.

(* the selections [new] appended to [base] are each best w.r.t. the vector whose number is listed *)
Definition sel_ok (n : nat) (R : list (list Z)) (base : list nat) (idxs new : list nat) : Prop :=
  forall j, (j < length new)%nat ->
    best_wrt n (nth (nth j idxs O) R []) (base ++ firstn j new) (nth j new O).

Lemma sel_ok_nil n R base idxs : sel_ok n R base idxs [].
Proof. intros j Hj; inversion Hj. Qed.

Lemma sel_ok_cons n R base c idxs i new :
  best_wrt n (nth c R []) base i -> sel_ok n R (base ++ [i]) idxs new ->
  sel_ok n R base (c :: idxs) (i :: new).
Proof.
  intros H0 H [|j] Hj; cbn [nth firstn]; [now rewrite app_nil_r|].
  specialize (H j ltac:(cbn in Hj; lia)). now rewrite <- app_assoc in H.
Qed.

Lemma sel_ok_app n R base idxs1 new1 idxs2 new2 :
  length idxs1 = length new1 ->
  sel_ok n R base idxs1 new1 -> sel_ok n R (base ++ new1) idxs2 new2 ->
  sel_ok n R base (idxs1 ++ idxs2) (new1 ++ new2).
Proof.
  intros Hl H1 H2 j Hj. rewrite app_length in Hj.
  destruct (Nat.lt_ge_cases j (length new1)) as [Hlt|Hge].
  - rewrite (app_nth1 idxs1) by lia. rewrite (app_nth1 new1) by lia.
    rewrite firstn_app. replace (j - length new1)%nat with O by lia.
    cbn [firstn]. rewrite app_nil_r. apply H1. exact Hlt.
  - rewrite (app_nth2 idxs1) by lia. rewrite (app_nth2 new1) by lia.
    rewrite firstn_app, (firstn_all2 new1) by lia.
    rewrite Hl, app_assoc. apply H2. lia.
Qed.

(* what a warm start loads and keeps is the stream the selector held *)
Lemma c_warm_stream s : c_rest s <> [] -> c_vec (c_warm s) :: c_rest (c_warm s) = c_rest s.
Proof. unfold c_warm. now destruct (c_rest s). Qed.

(* _init_greedy_search is _continue_greedy_search on an object that holds no vector yet *)
Lemma g_cold_warm R : g_cold R = g_warm (mk_gst [] [] [] (mk_cst [] 0 R true) None).
Proof. now destruct R. Qed.

Section Stage.
  Variable re : nat.
  Variable cand : list (list Z).
  Let n := length cand.
  Variable R : list (list Z).              (* refresh vectors of this stage, R_0 = the one loaded at its start *)

  (* the scorer's part of the loop invariant GInv: every vector has one entry per candidate *)
  Definition cP (s : cst) : Prop :=
    length (c_vec s) = n /\ Forall (fun r => length r = n) (c_rest s).

  Lemma cP_len s : cP s -> length (c_score s) = n.
  Proof. intros [H _]. exact H. Qed.

  Lemma cP_upd s i : cP s -> (i < n)%nat -> cP (c_upd re s i).
  Proof.
    intros [Hv Hr] _. unfold c_upd, cP.
    destruct (refresh_due re (S (c_nsel s))).
    - destruct (c_rest s) as [|r rest] eqn:Er; cbn.
      + split; [now rewrite upd_nth_length|constructor].
      + inversion Hr; subst. split; [now rewrite upd_nth_length|assumption].
    - cbn. split; [now rewrite upd_nth_length|assumption].
  Qed.

  Notation GI := (GInv cst cand None cP).
  Notation post := (post cst (c_upd re) cand None).

  (* the current vector agrees with refresh vector V on every item not yet selected *)
  Definition agree_off (chosen : list nat) (v V : list Z) : Prop :=
    forall u, (u < n)%nat -> ~ In u chosen -> nth u v 0 = nth u V 0.

  Lemma agree_upd chosen v V i :
    agree_off chosen v V -> agree_off (chosen ++ [i]) (upd_nth i 0 v) V.
  Proof.
    intros H u Hu Hn. rewrite nth_upd_nth_neq.
    - apply H; [exact Hu|]. intros Hin. apply Hn. apply in_or_app. now left.
    - intros ->. apply Hn. apply in_or_app. right. now left.
  Qed.

  Lemma is_best_wrt g i c :
    agree_off (sel g) (c_vec (sst g)) (nth c R []) ->
    is_best cst c_score cand g i -> best_wrt n (nth c R []) (sel g) i.
  Proof.
    intros Ha (Hi & Hni & Hmax & Hfirst). unfold c_score in *.
    split; [exact Hi|]. split; [exact Hni|]. split.
    - intros u Hu Hnu. rewrite <- (Ha u Hu Hnu), <- (Ha i Hi Hni). now apply Hmax.
    - intros u Hu Hnu. rewrite <- (Ha u) by (try lia; assumption).
      rewrite <- (Ha i Hi Hni). now apply Hfirst.
  Qed.

  Definition on_vec (c : nat) (g : gst cst) : Prop :=
    GI g /\ c_nsel (sst g) = length (sel g) /\ c_rest (sst g) = skipn (S c) R /\
    agree_off (sel g) (c_vec (sst g)) (nth c R []).

  (* loading vector c: what is asked of the state before is only that the stream it still
     holds is R from c on *)
  Lemma on_vec_warm (P : cst -> Prop) c g :
    GInv cst cand None P g -> Forall (fun r => length r = n) (c_rest (sst g)) ->
    c_nsel (sst g) = length (sel g) -> c_rest (sst g) = skipn c R -> (c < length R)%nat ->
    on_vec c (g_warm g) /\ c_ok (sst (g_warm g)) = c_ok (sst g).
  Proof.
    intros HI HF Hn Hrest Hc. rewrite (skipn_cons_nth [] R c Hc) in Hrest.
    unfold on_vec, g_warm, c_warm. cbn [sel sst]. rewrite Hrest in *.
    cbn [c_vec c_nsel c_rest c_ok]. inversion HF as [|r0 rest0 Hr0 HF'].
    split; [|reflexivity].
    split; [|split; [exact Hn|split; [reflexivity|intros u _ _; reflexivity]]].
    apply (GInv_sst cst cand None P cP g); try reflexivity; [exact HI|split; assumption].
  Qed.

  Lemma on_vec_cold :
    Forall (fun r => length r = n) R -> (0 < length R)%nat ->
    on_vec 0 (g_cold R) /\ c_ok (sst (g_cold R)) = true.
  Proof.
    intros HR Hc. rewrite g_cold_warm.
    apply (on_vec_warm (fun _ => True)); try reflexivity; [|exact HR|exact Hc].
    unfold GInv; cbn. repeat split; constructor.
  Qed.

  Lemma on_vec_next c g :
    on_vec c g -> (S c < length R)%nat ->
    on_vec (S c) (g_warm g) /\ c_ok (sst (g_warm g)) = c_ok (sst g).
  Proof.
    intros (HI & Hn & Hrest & _). apply (on_vec_warm cP); try assumption. exact (proj2 (GInv_P _ _ _ _ _ HI)).
  Qed.

  (* one selection: the refresh rule of c_upd moves the state to the next vector or zeroes the
     selected entry of the current one *)
  Lemma on_vec_post c g g1 i :
    on_vec c g -> sel g1 = sel g -> sst g1 = sst g -> GI (post g1 i) ->
    let c' := if refresh_due re (S (length (sel g))) then S c else c in
    (c' < length R)%nat ->
    on_vec c' (post g1 i) /\ c_ok (sst (post g1 i)) = c_ok (sst g).
  Proof.
    intros (_ & Hn & Hrest & Hag) Hs Hss HI2 c' Hc.
    assert (El : sel (post g1 i) = sel g ++ [i]) by (cbn; now rewrite Hs).
    assert (Es : sst (post g1 i) = c_upd re (sst g) i) by (cbn; now rewrite Hss).
    unfold on_vec. rewrite Es, El, app_length, Nat.add_1_r. unfold c_upd, c' in *. rewrite Hn.
    destruct (refresh_due re (S (length (sel g)))).
    - rewrite Hrest, (skipn_cons_nth [] R (S c) Hc). cbn [c_nsel c_rest c_vec c_ok].
      split; [|reflexivity]. split; [exact HI2|]. split; [reflexivity|]. split; [reflexivity|].
      apply agree_upd. intros u _ _. reflexivity.
    - cbn [c_nsel c_rest c_vec c_ok].
      split; [|reflexivity]. split; [exact HI2|]. split; [reflexivity|]. split; [exact Hrest|].
      apply agree_upd, Hag.
  Qed.

  Lemma stage t k : forall g c g' st,
    on_vec c g -> (idx_after re (length (sel g)) c k < length R)%nat ->
    c_run re cand t k g = (g', st) ->
    exists new, sel g' = sel g ++ new /\ (length new <= k)%nat /\ (st = false -> length new = k) /\
      sel_ok n R (sel g) (idx_steps re (length (sel g)) c k) new /\
      on_vec (idx_after re (length (sel g)) c (length new)) g' /\
      c_ok (sst g') = c_ok (sst g).
  Proof.
    induction k as [|k IH]; intros g c g' st Hv Hen H; unfold c_run in H.
    - injection H as <- <-. exists []. rewrite app_nil_r. cbn [length idx_after].
      split; [reflexivity|]. split; [lia|]. split; [reflexivity|].
      split; [apply sel_ok_nil|]. split; [exact Hv|reflexivity].
    - destruct (run_S cst c_score (c_upd re) cand None cP cP_len cP_upd t k g g' st (proj1 Hv) H)
        as [(i & g1 & Hs & Hss & Hb & HI2 & H2)|(Hs & Hss & HI' & ->)].
      + cbn [idx_after] in Hen.
        destruct (on_vec_post c g g1 i Hv Hs Hss HI2) as [Hv2 Hok2].
        { eapply Nat.le_lt_trans; [apply idx_after_ge|exact Hen]. }
        assert (Hsel2 : sel (post g1 i) = sel g ++ [i]) by (cbn; now rewrite Hs).
        assert (Hlen2 : length (sel (post g1 i)) = S (length (sel g)))
          by (rewrite Hsel2, app_length; cbn; lia).
        rewrite <- Hlen2 in Hen at 1.
        destruct (IH _ _ g' st Hv2 Hen H2) as (new & Hnew & Hle & Hst & Hbest & Hvf & Hokf).
        rewrite Hlen2 in Hbest, Hvf. rewrite Hsel2 in Hnew, Hbest.
        exists (i :: new). cbn [length idx_after idx_steps].
        split; [now rewrite Hnew, <- app_assoc|]. split; [lia|].
        split; [intros E; now rewrite (Hst E)|].
        split; [|split; [exact Hvf|now rewrite Hokf]].
        apply sel_ok_cons; [apply is_best_wrt; [apply Hv|exact Hb]|exact Hbest].
      + exists []. rewrite app_nil_r. destruct Hv as (_ & Hn & Hrest & Hag).
        split; [exact Hs|]. split; [cbn; lia|]. split; [discriminate|].
        split; [apply sel_ok_nil|]. unfold on_vec. rewrite Hs, Hss. auto.
  Qed.

  (* [stage] with [on_vec] and [sel_ok] unfolded *)
  Theorem stage_gen t k : forall g c g' st,
    GI g -> c_nsel (sst g) = length (sel g) ->
    c_rest (sst g) = skipn (S c) R ->
    agree_off (sel g) (c_vec (sst g)) (nth c R []) ->
    (idx_after re (length (sel g)) c k < length R)%nat ->
    c_run re cand t k g = (g', st) ->
    exists new, sel g' = sel g ++ new /\ (length new <= k)%nat /\ (st = false -> length new = k) /\
      (forall j, (j < length new)%nat ->
         best_wrt n (nth (nth j (idx_steps re (length (sel g)) c k) O) R [])
                  (sel g ++ firstn j new) (nth j new O)) /\
      GI g' /\ c_nsel (sst g') = length (sel g') /\
      c_rest (sst g') = skipn (S (idx_after re (length (sel g)) c (length new))) R /\
      agree_off (sel g') (c_vec (sst g')) (nth (idx_after re (length (sel g)) c (length new)) R []) /\
      c_ok (sst g') = c_ok (sst g).
  Proof.
    intros g c g' st HI Hn Hrest Hag Hen H.
    destruct (stage t k g c g' st (conj HI (conj Hn (conj Hrest Hag))) Hen H)
      as (new & A & B & C & D & (E1 & E2 & E3 & E4) & F).
    exists new. exact (conj A (conj B (conj C (conj D (conj E1 (conj E2 (conj E3 (conj E4 F)))))))).
  Qed.

  Lemma stage_nothr c k g g' st :
    on_vec c g -> (length (sel g) + k <= n)%nat ->
    (idx_after re (length (sel g)) c k < length R)%nat ->
    c_run re cand NoThr k g = (g', st) ->
    exists new, sel g' = sel g ++ new /\ length new = k /\
      sel_ok n R (sel g) (idx_steps re (length (sel g)) c k) new /\
      on_vec (idx_after re (length (sel g)) c k) g' /\ c_ok (sst g') = c_ok (sst g).
  Proof.
    intros Hv Hk Hen H.
    destruct (stage NoThr k g c g' st Hv Hen H) as (new & Hnew & _ & Hst & Hbest & Hvf & Hokf).
    pose proof (Hst (run_nothr_full cst c_score (c_upd re) cand None cP cP_len cP_upd
                                    k g g' st (proj1 Hv) Hk H)) as Hl.
    rewrite Hl in Hvf. exists new. auto.
  Qed.

  Theorem step_argmax_cold t k g' st :
    Forall (fun r => length r = n) R ->
    (force_idx re k < length R)%nat ->
    c_run re cand t k (g_cold R) = (g', st) ->
    (length (sel g') <= k)%nat /\ (st = false -> length (sel g') = k) /\
    c_ok (sst g') = true /\
    forall j, (j < length (sel g'))%nat ->
      best_wrt n (nth (force_idx re j) R []) (firstn j (sel g')) (nth j (sel g') O).
  Proof.
    intros HR Hen H. destruct (on_vec_cold HR ltac:(lia)) as [Hv Hok].
    rewrite <- idx_after_force in Hen.
    destruct (stage t k _ 0 g' st Hv Hen H) as (new & Hnew & Hle & Hst & Hbest & _ & Hokf).
    rewrite g_cold_warm in Hnew, Hbest. cbn [g_warm sel app length] in Hnew, Hbest.
    rewrite Hnew. split; [exact Hle|]. split; [exact Hst|]. split; [now rewrite Hokf|].
    intros j Hj. specialize (Hbest j Hj).
    now rewrite idx_steps_nth, idx_after_force in Hbest by lia.
  Qed.

  (* warm start of a selector that still holds the stream R: vector 0 of R is loaded *)
  Theorem step_argmax_warm t k g g' st :
    GI g -> c_nsel (sst g) = length (sel g) -> c_rest (sst g) = R ->
    (idx_after re (length (sel g)) 0 k < length R)%nat ->
    c_run re cand t k (g_warm g) = (g', st) ->
    exists new, sel g' = sel g ++ new /\ (length new <= k)%nat /\ (st = false -> length new = k) /\
      c_ok (sst g') = c_ok (sst g) /\
      sel_ok n R (sel g) (idx_steps re (length (sel g)) 0 k) new.
  Proof.
    intros HI Hn ER Hen H.
    destruct (on_vec_warm cP 0 g HI (proj2 (GInv_P _ _ _ _ _ HI)) Hn ER) as [Hv Hokw]; [lia|].
    destruct (stage t k _ 0 g' st Hv Hen H) as (new & Hnew & Hle & Hst & Hbest & _ & Hokf).
    exists new. split; [exact Hnew|]. split; [exact Hle|]. split; [exact Hst|].
    split; [now rewrite Hokf|exact Hbest].
  Qed.
End Stage.
