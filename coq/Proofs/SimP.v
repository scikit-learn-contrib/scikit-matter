(* Two scorers that expose equal scores in related states drive the greedy loop to the
   same selections.  [R s1 s2 sl] relates the two scorer states after the selections [sl]; the
   length of the score vector is asked of the first scorer only, the second has the same scores. *)
From Verif Require Import ListX Greedy ListXP.

Section Sim.
  Variables S1 S2 : Type.
  Variable score1 : S1 -> list Z.
  Variable score2 : S2 -> list Z.
  Variable upd1 : S1 -> nat -> S1.
  Variable upd2 : S2 -> nat -> S2.
  Variable cand : list (list Z).
  Variable ycand : option (list (list Z)).
  Let n := length cand.
  Variable R : S1 -> S2 -> list nat -> Prop.
  Hypothesis R_score : forall s1 s2 sl, R s1 s2 sl -> score1 s1 = score2 s2.
  Hypothesis R_len : forall s1 s2 sl, R s1 s2 sl -> length (score1 s1) = n.
  Hypothesis R_upd : forall s1 s2 sl i,
      R s1 s2 sl -> (i < n)%nat -> R (upd1 s1 i) (upd2 s2 i) (sl ++ [i]).

  Definition gsim (g1 : gst S1) (g2 : gst S2) : Prop :=
    sel g1 = sel g2 /\ xsel g1 = xsel g2 /\ ysel g1 = ysel g2 /\ first g1 = first g2 /\
    R (sst g1) (sst g2) (sel g1).

  Lemma post_sim g1 g2 i :
    gsim g1 g2 -> (i < n)%nat ->
    gsim (post S1 upd1 cand ycand g1 i) (post S2 upd2 cand ycand g2 i).
  Proof.
    intros (A & B & Cc & D & E) Hi. unfold gsim, post; cbn.
    rewrite A, B, Cc, D. repeat split; auto. rewrite <- A. now apply R_upd.
  Qed.

  Lemma best_new_sim t g1 g2 :
    gsim g1 g2 ->
    fst (best_new S1 score1 t g1) = fst (best_new S2 score2 t g2) /\
    gsim (snd (best_new S1 score1 t g1)) (snd (best_new S2 score2 t g2)) /\
    (forall i, fst (best_new S1 score1 t g1) = Some i -> (i < n)%nat).
  Proof.
    intros (A & B & Cc & D & E). unfold best_new.
    rewrite <- (R_score _ _ _ E), <- A, <- D.
    destruct (amax (mask (sel g1) (score1 (sst g1)))) as [[i v]|] eqn:Ea.
    - apply amax_mask_spec in Ea as (Hi & _). rewrite (R_len _ _ _ E) in Hi.
      destruct (has_thr t).
      + destruct (below t _ v); cbn; (split; [reflexivity|]); (split; [|try discriminate]).
        * unfold gsim; cbn. auto.
        * unfold gsim; cbn. auto.
        * intros i0 H; injection H as <-; exact Hi.
      + cbn. split; [reflexivity|]. split; [unfold gsim; auto|].
        intros i0 H; injection H as <-; exact Hi.
    - cbn. split; [reflexivity|]. split; [unfold gsim; auto|discriminate].
  Qed.

  Theorem run_sim t k g1 g2 :
    gsim g1 g2 ->
    gsim (fst (run S1 score1 upd1 cand ycand t k g1)) (fst (run S2 score2 upd2 cand ycand t k g2)) /\
    snd (run S1 score1 upd1 cand ycand t k g1) = snd (run S2 score2 upd2 cand ycand t k g2).
  Proof.
    revert g1 g2; induction k as [|k IH]; intros g1 g2 H; cbn; [auto|].
    destruct (best_new_sim t g1 g2 H) as (A & B & Cc).
    destruct (best_new S1 score1 t g1) as [o1 g1'].
    destruct (best_new S2 score2 t g2) as [o2 g2']. cbn in A, B, Cc. subst o2.
    destruct o1 as [i|]; [|cbn; auto].
    apply IH. apply post_sim; [exact B|]. now apply Cc.
  Qed.

  (* the same for the loop of a fit that is to reach k selections *)
  Corollary run_sim_len t k g1 g2 :
    gsim g1 g2 ->
    gsim (fst (run S1 score1 upd1 cand ycand t (k - length (sel g1)) g1))
         (fst (run S2 score2 upd2 cand ycand t (k - length (sel g2)) g2)) /\
    snd (run S1 score1 upd1 cand ycand t (k - length (sel g1)) g1)
    = snd (run S2 score2 upd2 cand ycand t (k - length (sel g2)) g2).
  Proof. intros H. rewrite (proj1 H). now apply run_sim. Qed.
End Sim.
