(* C08: sessions on one selector object (Model/SelSession.v): any sequence of calls of fit,
   set_params and calls that raise. *)
From Verif Require Import ListX Greedy Select C01Thm SelSession.

Section SelSessionP.
  Variable cand : list (list Z).
  Variable ycand : option (list (list Z)).
  Notation n := (length cand).
  Notation sfit := (sfit cand ycand).
  Notation sess_fit := (sess_fit cand ycand).
  Notation sess_step := (sess_step cand ycand).
  Notation sess_run := (sess_run cand ycand).
  Notation sess_kept := (sess_kept cand ycand).
  Notation never_returned := (never_returned cand ycand).

  Lemma sess_fit_cases o c r str :
    (sess_fit o c r str = (o, RPre)) \/
    (sess_fit o c r str = (Some g_reset, RInit) /\ c_warm c = false) \/
    (exists g st, sess_fit o c r str = (Some g, ROk g st)).
  Proof.
    unfold SelSession.sess_fit.
    destruct (c_full c && has_thr (c_thr c)); [now left|].
    destruct (resolve_n _ _) as [k|]; [|now left].
    destruct (c_warm c) eqn:Hw.
    - destruct (match o with Some g0 => Nat.ltb k (length (sel g0)) | None => false end); [now left|].
      destruct (Select.sfit _ _ _ _ _ _) as [|g st]; [now left|]. right; right. now exists g, st.
    - destruct (init_check _ _ _) as [inits|]; [|right; left; auto].
      destruct (Select.sfit _ _ _ _ _ _) as [|g st]; [now left|]. right; right. now exists g, st.
  Qed.

  (* a rejected call leaves no trace *)
  Theorem sess_fit_rejected_same o c r str :
    snd (sess_fit o c r str) = RPre -> fst (sess_fit o c r str) = o.
  Proof.
    destruct (sess_fit_cases o c r str) as [E|[[E _]|(g & st & E)]]; rewrite E; cbn; auto; discriminate.
  Qed.

  Theorem sess_step_rejected_same o e :
    snd (sess_step o e) = Some RPre -> fst (sess_step o e) = o.
  Proof.
    destruct e as [c r str| |]; cbn; auto.
    pose proof (sess_fit_rejected_same o c r str) as H.
    destruct (sess_fit o c r str) as [o' res]; cbn in *. intros E. apply H. congruence.
  Qed.

  (* the rejected calls of a session can be deleted without changing where it ends *)
  Theorem sess_drop_rejected evs : forall o, sess_run o (sess_kept o evs) = sess_run o evs.
  Proof.
    induction evs as [|e rest IH]; intros o; cbn [SelSession.sess_kept SelSession.sess_run]; [reflexivity|].
    pose proof (sess_step_rejected_same o e) as Hsame.
    destruct (sess_step o e) as [o' res] eqn:Es. cbn [fst snd] in *.
    destruct res as [[| |g st]|].
    2-4: cbn [SelSession.sess_run]; rewrite Es; apply IH.
    assert (Eo : o' = o) by (apply Hsame; reflexivity). subst o'. apply IH.
  Qed.

  (* warm_start on an object without selections is rejected, whatever else is configured *)
  Theorem sess_unfitted_warm_rejected o c r str :
    unfitted o -> c_warm c = true -> sess_fit o c r str = (o, RPre).
  Proof.
    intros Hu Hw. unfold SelSession.sess_fit.
    destruct (c_full c && has_thr (c_thr c)); [reflexivity|].
    destruct (resolve_n n (c_nts c)) as [k|]; [|reflexivity]. rewrite Hw.
    destruct (match o with Some g0 => Nat.ltb k (length (sel g0)) | None => false end); [reflexivity|].
    rewrite c01_rejections; [reflexivity|]. right; right. split; [exact Hw|].
    destruct Hu as [->|(g & -> & Hs)]; [now left|right; now exists g].
  Qed.

  Lemma step_keeps_unfitted o e :
    unfitted o -> returned (snd (sess_step o e)) = false -> unfitted (fst (sess_step o e)).
  Proof.
    intros Hu. destruct e as [c r str| |]; cbn; auto.
    destruct (sess_fit_cases o c r str) as [E|[[E _]|(g & st & E)]]; rewrite E; cbn; auto.
    - intros _. right. exists g_reset. split; reflexivity.
    - intros H. right. exists g. split; [reflexivity|].
      destruct (sel g); [reflexivity|discriminate].
  Qed.

  (* after any sequence of calls none of which returned with a selection (fresh object, rejected
     calls, cold fits that raised during initialisation, set_params in between) the object is
     not fitted *)
  Theorem sess_never_returned_unfitted evs : forall o,
    unfitted o -> never_returned o evs = true -> unfitted (sess_run o evs).
  Proof.
    induction evs as [|e rest IH]; intros o Hu Hn; cbn [SelSession.sess_run]; [exact Hu|].
    cbn [SelSession.never_returned] in Hn.
    pose proof (step_keeps_unfitted o e Hu) as Hk.
    destruct (sess_step o e) as [o' res]. cbn [fst snd] in *.
    apply andb_true_iff in Hn as [H1 H2]. apply IH; [|exact H2].
    apply Hk. now destruct (returned res).
  Qed.

  (* a cold fit does not see the history of the object *)
  Theorem sess_cold_history_free o c r str :
    c_warm c = false ->
    snd (sess_fit o c r str) = snd (sess_fit None c r str) /\
    (snd (sess_fit o c r str) <> RPre -> fst (sess_fit o c r str) = fst (sess_fit None c r str)).
  Proof.
    intros Hw. unfold SelSession.sess_fit.
    destruct (c_full c && has_thr (c_thr c)) eqn:Ef; [cbn; split; [reflexivity|congruence]|].
    destruct (resolve_n n (c_nts c)) as [k|] eqn:Er; [|cbn; split; [reflexivity|congruence]].
    rewrite Hw.
    destruct (init_check n k r) as [inits|]; [|cbn; split; reflexivity].
    assert (E : sfit o c inits str = sfit None c inits str).
    { unfold Select.sfit. now rewrite Ef, Er, Hw. }
    rewrite E. destruct (sfit None c inits str) as [|g st]; cbn; split; auto; congruence.
  Qed.

  (* a cold fit whose initial selections are invalid is not a fit: the object is reset, and
     the next warm start is rejected *)
  Theorem sess_failed_init_then_warm o c r str c' r' str' :
    snd (sess_fit o c r str) = RInit -> c_warm c' = true ->
    snd (sess_fit (fst (sess_fit o c r str)) c' r' str') = RPre.
  Proof.
    intros Hi Hw.
    destruct (sess_fit_cases o c r str) as [E|[[E _]|(g & st & E)]]; rewrite E in *; cbn in Hi; try discriminate.
    cbn [fst]. rewrite sess_unfitted_warm_rejected; [reflexivity| |exact Hw].
    right. exists g_reset. split; reflexivity.
  Qed.
End SelSessionP.

Lemma init_check_sound n k r l :
  init_check n k r = Some l ->
  (length l <= k)%nat /\ Forall (fun i => (i < n)%nat) l.
Proof.
  destruct r as [zl| |]; cbn; [|intros H; injection H as <-; split; [cbn; lia|constructor]|discriminate].
  destruct (Nat.leb (length zl) k) eqn:El; [|discriminate]. cbn [andb].
  destruct (forallb _ zl) eqn:Ef; [|discriminate]. intros H; injection H as <-.
  apply Nat.leb_le in El. rewrite map_length. split; [exact El|].
  rewrite forallb_forall in Ef. apply Forall_forall. intros i Hi.
  apply in_map_iff in Hi as (z & <- & Hz). specialize (Ef z Hz).
  apply andb_true_iff in Ef as [A B]. apply Z.leb_le in A. apply Z.ltb_lt in B.
  assert (Hn : 0 < Z.of_nat n) by lia.
  pose proof (Z.mod_pos_bound z (Z.of_nat n) Hn). lia.
Qed.

(* an entry below -n (or above n-1) anywhere in the list makes the cold fit fail *)
Lemma init_check_out_of_range n k l z :
  In z l -> (z < - Z.of_nat n \/ Z.of_nat n <= z) -> init_check n k (InitIdx l) = None.
Proof.
  intros Hz Hr. cbn. destruct (Nat.leb (length l) k); [|reflexivity]. cbn [andb].
  destruct (forallb _ l) eqn:Ef; [|reflexivity].
  rewrite forallb_forall in Ef. specialize (Ef z Hz).
  apply andb_true_iff in Ef as [A B]. apply Z.leb_le in A. apply Z.ltb_lt in B. lia.
Qed.

Lemma init_check_too_long n k l : (k < length l)%nat -> init_check n k (InitIdx l) = None.
Proof. intros H. cbn. apply Nat.leb_gt in H. now rewrite H. Qed.
