(* C17 — the estimator object as a state machine (Model/SparseKDEH.v): invariants over ALL histories
   of fit / score_samples / attribute reads / parameter assignments on one object (ssreflect style). *)
From mathcomp Require Import all_ssreflect all_algebra.
From Verif Require Import SparseKDEA SparseKDEAP SparseKDEH.
Set Implicit Arguments.
Unset Strict Implicit.
Unset Printing Implicit Defensive.
Import GRing.Theory.

Section MachineP.
  Variables (P G S CI CN Qy O : Type).
  Variable fitf : P -> G -> S.
  Variable invf : S -> CI.
  Variable nkf : S -> CN.
  Variable needs_nk : S -> Qy -> bool.
  Variable scoref : P -> S -> CI -> CN -> Qy -> O.
  Variable peekf : S -> O.

  Let step := kstep fitf invf nkf needs_nk scoref peekf.
  Let run := krun fitf invf nkf needs_nk scoref peekf.
  Let coh := @coherent P S CI CN invf nkf.
  Let st := @kst P S CI CN.
  Let op := @kop P G Qy.

  Lemma kinit_coherent p : coh (kinit p).
  Proof. by []. Qed.

  Lemma kstep_coherent (s : st) (o : op) : coh s -> coh (step s o).1.
  Proof.
    rewrite /coh /coherent. case: s => p [f|] ci cn /=; case: o => [g|q||p'] //=.
    - by move=> _; split; left.
    - move=> [Hi Hn]. split.
        by right; case: Hi => ->.
      case: (needs_nk f q) => //. by right; case: Hn => ->.
    - by move=> _; split; left.
  Qed.

  Lemma krun_cons (o : op) (r : seq op) (s : st) :
    run s (o :: r) = ((run (step s o).1 r).1, (step s o).2 :: (run (step s o).1 r).2).
  Proof. by rewrite /run /= -/(step s o); case: (step s o) => s1 out; case: (krun _ _ _ _ _ _ s1 r). Qed.

  Lemma krun_coherent (ops : seq op) (s : st) : coh s -> coh (run s ops).1.
  Proof.
    elim: ops s => [|o r IH] s Hs //. rewrite krun_cons. exact: IH (kstep_coherent o Hs).
  Qed.

  Lemma reachable_coherent p (ops : seq op) : coh (run (kinit p) ops).1.
  Proof. exact: krun_coherent. Qed.

  Lemma krun_cat (a b : seq op) (s : st) :
    run s (a ++ b) = ((run (run s a).1 b).1, (run s a).2 ++ (run (run s a).1 b).2).
  Proof.
    elim: a s => [|o a IH] s; first by case: (run s b).
    by rewrite cat_cons !krun_cons IH.
  Qed.

  Lemma krun_last_fit (ops : seq op) (s : st) :
    (k_pars (run s ops).1, k_fit (run s ops).1) = last_fit fitf (k_pars s) (k_fit s) ops.
  Proof.
    elim: ops s => [|o r IH] s //. rewrite krun_cons IH.
    by case: s => p f ci cn; case: o => [g|q||p'] //=; case: f.
  Qed.

  (* in a coherent state score_samples uses the inverse / normalisation of the CURRENT fit *)
  Lemma score_current (s : st) f q :
    coh s -> k_fit s = Some f ->
    (step s (OScore q)).2 = Some (scoref (k_pars s) f (invf f) (nkf f) q).
  Proof.
    rewrite /coh /coherent /step. case: s => p f0 ci cn /= Hc Hf. move: Hc. rewrite Hf /=.
    by move=> [[->|->] [->|->]].
  Qed.

  (* for EVERY history: the outcome of score_samples depends only on the parameters in force, on the
     last fit and on the query (never on earlier fits, earlier queries or filled caches) *)
  Lemma score_after_history p0 (h : seq op) q :
    (step (run (kinit p0) h).1 (OScore q)).2 =
    let pf := last_fit fitf p0 None h in
    omap (fun f => scoref pf.1 f (invf f) (nkf f) q) pf.2.
  Proof.
    have Hc := reachable_coherent p0 h.
    have := krun_last_fit h (kinit p0). rewrite [k_pars _]/= [k_fit _]/=.
    case: (last_fit _ _ _ _) => p ofit /= [Hp Hf].
    case: ofit Hf => [f|] Hf /=.
      by rewrite (score_current q Hc Hf) Hp.
    rewrite /step. move: Hf. by case: (run _ _).1 => p1 [f1|] ci cn.
  Qed.

  (* reading bandwidth_ / _sample_weights after any history shows the last fit *)
  Lemma peek_after_history p0 (h : seq op) :
    (step (run (kinit p0) h).1 OPeek).2 = omap peekf (last_fit fitf p0 None h).2.
  Proof.
    have := krun_last_fit h (kinit p0). rewrite [k_fit (kinit _)]/=.
    case: (last_fit _ _ _ _) => p ofit /= [_ Hf]. by rewrite /step /= Hf.
  Qed.

  (* fit overwrites everything but the parameters: the state after it is that of a fresh object *)
  Lemma refit_state (s : st) g :
    (step s (OFit g)).1 = (step (kinit (k_pars s)) (OFit g)).1.
  Proof. by []. Qed.

End MachineP.

Section InstP.
  Local Open Scope ring_scope.
  Variable F : rcfType.
  Variables (fexp flog frnd : F -> F).
  Hypothesis exp_add : forall a b, fexp (a + b) = fexp a * fexp b.
  Hypothesis exp_gt0 : forall a, 0 < fexp a.
  Hypothesis exp_log : forall a, 0 < a -> fexp (flog a) = a.
  Hypothesis log_exp : forall a, flog (fexp a) = a.

  Let N := rops fexp flog frnd.
  Variable Gt : Type.
  Variable fitf : kpars N -> Gt -> kfit N.
  Variable invf : kfit N -> seq (seq (seq F)).
  Variable nkf : kfit N -> seq F.

  Definition log_mixture (p : kpars N) (f : kfit N) (x : seq F) : option F :=
    let m := mixture fexp flog frnd (kp_cell N p) (kf_G N f) (kp_D N p) (kp_w N p) (kf_W N f) (kf_mem N f)
                     (invf f) (nkf f) (kp_dim N p) x in
    if m == 0 then None else Some (flog m).

  Lemma history_mixture p0 (h : seq (@kop (kpars N) Gt (seq (seq F)))) (q : seq (seq F)) p f :
    last_fit fitf p0 None h = (p, Some f) ->
    (forall i : nat, 0 <= List.nth i (kp_w N p) 0) ->
    (forall j : nat, 0 <= List.nth j (kf_W N f) 0) ->
    0 < \sum_(v <- (kf_W N f)) v ->
    (kstep fitf invf nkf (@kde_needs_nk N) (@kde_scoref N) (@kde_peekf N)
           (krun fitf invf nkf (@kde_needs_nk N) (@kde_scoref N) (@kde_peekf N) (kinit p0) h).1
           (OScore q)).2
    = Some (@KScores N (List.map (log_mixture p f) q)
              (score N (kp_cell N p) (kf_G N f) (kp_D N p) (kp_w N p) (kf_W N f) (kf_mem N f)
                     (invf f) (nkf f) (kp_dim N p) q)).
  Proof.
    move=> Hl Hw HW Hpos. rewrite score_after_history Hl /= /kde_scoref.
    f_equal. f_equal.
    rewrite /score_samples. apply: List.map_ext => x.
    rewrite /log_mixture. by apply: mixture_formula.
  Qed.
End InstP.
