(* Lemmas about Base/ListX.v and about lists in general: the order on ExtZ, vector algebra over Z,
   lists tabulated over their indices, arg-max / arg-min and masks, sorting. *)
From Verif Require Import ListX.
From Coq Require Import Sorting.Permutation Sorting.Sorted.

(* ExtZ order *)
Definition ext_le (a b : ExtZ) : Prop :=
  match a, b with
  | _, None => True
  | None, Some _ => False
  | Some x, Some y => x <= y
  end.

Lemma ext_le_refl a : ext_le a a.
Proof. destruct a; cbn; lia. Qed.

Lemma ext_le_trans a b c : ext_le a b -> ext_le b c -> ext_le a c.
Proof. destruct a, b, c; cbn; try lia; tauto. Qed.

Lemma ext_min_le_l a b : ext_le (ext_min a b) a.
Proof. destruct a; cbn; lia. Qed.

Lemma ext_min_le_r a b : ext_le (ext_min a b) (Some b).
Proof. destruct a; cbn; lia. Qed.

Lemma ext_min_mono a a' b : ext_le a a' -> ext_le (ext_min a b) (ext_min a' b).
Proof. destruct a, a'; cbn; lia. Qed.

(* vectors over Z: dot, sqn, sqdist *)
Lemma dot_nil_l v : dot [] v = 0. Proof. reflexivity. Qed.

Lemma dot_cons a u b v : dot (a :: u) (b :: v) = a * b + dot u v.
Proof. reflexivity. Qed.

Lemma dot_comm u v : dot u v = dot v u.
Proof.
  revert v; induction u as [|a u IH]; intros [|b v]; try reflexivity.
  rewrite !dot_cons, IH. lia.
Qed.

Lemma sqn_cons a u : sqn (a :: u) = a * a + sqn u.
Proof. unfold sqn. now rewrite dot_cons. Qed.

Lemma sqn_nonneg u : 0 <= sqn u.
Proof.
  unfold sqn. induction u as [|a u IH]; [unfold dot; cbn; lia|].
  rewrite dot_cons. pose proof (Z.square_nonneg a). lia.
Qed.

Lemma sqdist_nonneg u v : 0 <= sqdist u v.
Proof. apply sqn_nonneg. Qed.

Lemma sqdist_cons a u b v : sqdist (a :: u) (b :: v) = (a - b) * (a - b) + sqdist u v.
Proof. reflexivity. Qed.

(* the identity behind `norms_ + norms_[l] - 2 * X[l] @ X.T` *)
Lemma sqdist_expand u v :
  length u = length v -> sqn u + sqn v - 2 * dot v u = sqdist u v.
Proof.
  revert v; induction u as [|a u IH]; intros [|b v] H; try discriminate; [reflexivity|].
  injection H as H. specialize (IH v H).
  unfold sqn in *. rewrite sqdist_cons, !dot_cons. lia.
Qed.

Lemma sqdist_self u : sqdist u u = 0.
Proof. induction u as [|a u IH]; [reflexivity|]. rewrite sqdist_cons, IH. lia. Qed.

Lemma sqdist_sym u v : sqdist u v = sqdist v u.
Proof.
  revert v; induction u as [|a u IH]; intros [|b v]; try reflexivity.
  rewrite !sqdist_cons, IH. lia.
Qed.

(* nth, upd_nth, and lists tabulated over their indices: l = map f (seq 0 n) *)
Lemma nth_map_lt {A B} (f : A -> B) l i d d' :
  (i < length l)%nat -> nth i (map f l) d = f (nth i l d').
Proof.
  intros H. rewrite nth_indep with (d' := f d') by now rewrite map_length. apply map_nth.
Qed.

Lemma nth_upd_nth_eq {A} i (x d : A) l : (i < length l)%nat -> nth i (upd_nth i x l) d = x.
Proof. revert i; induction l as [|a l IH]; intros [|i] H; cbn in *; try lia; auto. apply IH; lia. Qed.

Lemma nth_upd_nth_neq {A} i j (x d : A) l : i <> j -> nth j (upd_nth i x l) d = nth j l d.
Proof.
  revert i j; induction l as [|a l IH]; intros [|i] [|j] H; cbn; try reflexivity; try congruence.
  apply IH; congruence.
Qed.

Lemma nth_map_seq {B} (f : nat -> B) n j d : (j < n)%nat -> nth j (map f (seq 0 n)) d = f j.
Proof. intros H. rewrite (nth_map_lt f _ j d O), seq_nth by (rewrite ?seq_length; exact H). reflexivity. Qed.

Lemma map_seq_ext {B} (f g : nat -> B) n :
  (forall j, (j < n)%nat -> f j = g j) -> map f (seq 0 n) = map g (seq 0 n).
Proof. intros H. apply map_ext_in. intros j Hj. apply in_seq in Hj. apply H. lia. Qed.

Lemma map_seq_nth {A B} (f : A -> B) (l : list A) d :
  map f l = map (fun j => f (nth j l d)) (seq 0 (length l)).
Proof.
  induction l as [|a l IH]; cbn; [reflexivity|]. f_equal.
  rewrite <- seq_shift, map_map. exact IH.
Qed.

Lemma as_map_seq {A} (l : list A) n d : length l = n -> l = map (fun j => nth j l d) (seq 0 n).
Proof. intros <-. rewrite <- (map_id l) at 1. apply (map_seq_nth (fun x => x)). Qed.

Lemma map_const_seq {B} (c : B) m k : map (fun _ => c) (seq k m) = repeat c m.
Proof. revert k; induction m as [|m IH]; intros k; cbn; [reflexivity|now rewrite IH]. Qed.

Lemma map2_map {X A B C} (f : A -> B -> C) (a : X -> A) b l :
  map2 f (map a l) (map b l) = map (fun x => f (a x) (b x)) l.
Proof. now rewrite map2_map_l, map2_map_r, map2_same. Qed.

Lemma upd_nth_map_seq {B} (f : nat -> B) x i n k :
  upd_nth i x (map f (seq k n)) = map (fun j => if (j =? k + i)%nat then x else f j) (seq k n).
Proof.
  revert i k; induction n as [|n IH]; intros [|i] k; cbn; try reflexivity.
  - rewrite Nat.add_0_r, Nat.eqb_refl. f_equal. apply map_ext_in. intros j Hj. apply in_seq in Hj.
    destruct (Nat.eqb_spec j k); [lia|reflexivity].
  - destruct (Nat.eqb_spec k (k + S i)); [lia|]. f_equal. rewrite IH.
    apply map_ext. intros j. now replace (S k + i)%nat with (k + S i)%nat by lia.
Qed.

Lemma fold_left_ext_in {A B} (f g : A -> B -> A) l s :
  (forall a b, In b l -> f a b = g a b) -> fold_left f l s = fold_left g l s.
Proof.
  revert s. induction l as [|b l IH]; intros s H; [reflexivity|]. cbn.
  rewrite (H s b) by (left; reflexivity). apply IH. intros a b' Hb. apply H. right. exact Hb.
Qed.

(* Forall, NoDup, firstn, skipn *)
Lemma forall_below (P : nat -> Prop) n : Forall P (seq 0 n) -> forall i, (i < n)%nat -> P i.
Proof. rewrite Forall_forall. intros H i Hi. apply H, in_seq. lia. Qed.

Lemma forall_below2 (P : nat -> nat -> Prop) n :
  Forall (fun i => Forall (P i) (seq 0 n)) (seq 0 n) -> forall i j, (i < n)%nat -> (j < n)%nat -> P i j.
Proof. intros H i j Hi. apply forall_below. revert i Hi. apply forall_below. exact H. Qed.

Lemma NoDup_snoc {A} (s : list A) i : NoDup s -> ~ In i s -> NoDup (s ++ [i]).
Proof.
  intros Hnd Hni. apply NoDup_rev in Hnd. rewrite <- (rev_involutive (s ++ [i])).
  apply NoDup_rev. rewrite rev_app_distr. constructor; [now rewrite <- in_rev|exact Hnd].
Qed.

Lemma firstn_incl {A} j (s : list A) : incl (firstn j s) s.
Proof. intros x Hx. rewrite <- (firstn_skipn j s). apply in_or_app. now left. Qed.

Lemma firstn_NoDup {A} j (s : list A) : NoDup s -> NoDup (firstn j s).
Proof.
  rewrite <- (firstn_skipn j s) at 1. generalize (firstn j s) as l.
  induction l as [|a l IH]; cbn; intros H; [constructor|].
  inversion H as [|? ? Hn Hd]; subst. constructor; [|now apply IH].
  intros Hin. apply Hn. apply in_or_app. now left.
Qed.

Lemma firstn_Forall {A} (P : A -> Prop) j s : Forall P s -> Forall P (firstn j s).
Proof. rewrite !Forall_forall. intros H x Hx. now apply H, (firstn_incl j). Qed.

Lemma firstn_app_le {A} j (s r : list A) : (j <= length s)%nat -> firstn j (s ++ r) = firstn j s.
Proof.
  intros H. rewrite firstn_app. replace (j - length s)%nat with O by lia.
  cbn. now rewrite app_nil_r.
Qed.

Lemma firstn_app_exact {A} (s r : list A) : firstn (length s) (s ++ r) = s.
Proof. rewrite firstn_app_le by lia. apply firstn_all. Qed.

Lemma skipn_repeat {A} (d : A) m k : skipn m (repeat d k) = repeat d (k - m).
Proof. revert m; induction k as [|k IH]; intros [|m]; cbn; auto. Qed.

(* membership, masks, first arg-max and arg-min *)
Lemma memb_In i l : memb i l = true <-> In i l.
Proof.
  unfold memb. rewrite existsb_exists. split.
  - intros [x [Hx He]]. apply Nat.eqb_eq in He. now subst.
  - intros H. exists i. split; [assumption|apply Nat.eqb_refl].
Qed.

Lemma memb_false i l : memb i l = false <-> ~ In i l.
Proof. rewrite <- memb_In. destruct (memb i l); split; congruence. Qed.

Lemma fresh_index n l : (length l < n)%nat -> exists j, (j < n)%nat /\ ~ In j l.
Proof.
  intros Hl.
  destruct (forallb (fun j => memb j l) (seq 0 n)) eqn:E.
  - exfalso. rewrite forallb_forall in E.
    assert (Hinc : incl (seq 0 n) l) by (intros j Hj; apply memb_In, E, Hj).
    pose proof (NoDup_incl_length (seq_NoDup n 0) Hinc) as Hc. rewrite seq_length in Hc. lia.
  - assert (Hex : exists j, In j (seq 0 n) /\ memb j l = false).
    { clear Hl. induction (seq 0 n) as [|a q IH]; cbn in E; [discriminate|].
      destruct (memb a l) eqn:M; cbn in E.
      - destruct (IH E) as (j & Hj & Hm). exists j; cbn; auto.
      - exists a; cbn; auto. }
    destruct Hex as (j & Hj & Hm). exists j. rewrite in_seq in Hj.
    split; [lia|apply memb_false; exact Hm].
Qed.

Lemma mask_from_length i sel sc : length (mask_from i sel sc) = length sc.
Proof. revert i; induction sc as [|s t IH]; intros i; cbn; auto. Qed.

Lemma mask_from_nth i sel sc k :
  (k < length sc)%nat ->
  nth k (mask_from i sel sc) None =
  if memb (i + k) sel then None else Some (nth k sc 0).
Proof.
  revert i k; induction sc as [|s t IH]; intros i k Hk; cbn in Hk; [lia|].
  destruct k as [|k]; cbn [mask_from nth].
  - now rewrite Nat.add_0_r.
  - rewrite IH by lia. now replace (S i + k)%nat with (i + S k)%nat by lia.
Qed.

Lemma amax_none l : amax l = None -> forall j, nth j l None = None.
Proof.
  induction l as [|y t IH]; intros Et [|j]; cbn; auto.
  - cbn in Et. destruct (amax t) as [[? ?]|], y; try discriminate; try reflexivity.
    destruct (z <=? z0); discriminate.
  - apply IH. cbn in Et. destruct (amax t) as [[? ?]|]; [|reflexivity].
    destruct y; [destruct (z <=? z0)|]; discriminate.
Qed.

Lemma amax_spec l i v :
  amax l = Some (i, v) ->
  (i < length l)%nat /\ nth i l None = Some v /\
  (forall j w, nth j l None = Some w -> w <= v) /\
  (forall j w, (j < i)%nat -> nth j l None = Some w -> w < v).
Proof.
  revert i v; induction l as [|x t IH]; intros i v H; cbn in H; [discriminate|].
  destruct (amax t) as [[j w]|] eqn:Et.
  - specialize (IH j w eq_refl) as (Hj & Hn & Hmax & Hfirst).
    destruct x as [xv|].
    + destruct (w <=? xv) eqn:Hc; injection H as <- <-.
      * apply Z.leb_le in Hc. split; [cbn; lia|]. split; [reflexivity|]. split.
        -- intros [|j'] w' Hw; cbn in Hw; [injection Hw as <-; lia|].
           specialize (Hmax _ _ Hw). lia.
        -- intros j' w' Hlt; lia.
      * apply Z.leb_gt in Hc. split; [cbn; lia|]. split; [exact Hn|]. split.
        -- intros [|j'] w' Hw; cbn in Hw; [injection Hw as <-; lia|]. eauto.
        -- intros [|j'] w' Hlt Hw; cbn in Hw; [injection Hw as <-; lia|].
           apply (Hfirst j'); [lia|assumption].
    + injection H as <- <-. split; [cbn; lia|]. split; [exact Hn|]. split.
      * intros [|j'] w' Hw; cbn in Hw; [discriminate|]. eauto.
      * intros [|j'] w' Hlt Hw; cbn in Hw; [discriminate|].
        apply (Hfirst j'); [lia|assumption].
  - destruct x as [xv|]; [|discriminate]. injection H as <- <-.
    pose proof (amax_none _ Et) as Hnone.
    split; [cbn; lia|]. split; [reflexivity|]. split.
    + intros [|j'] w' Hw; cbn in Hw; [injection Hw as <-; lia|].
      rewrite Hnone in Hw; discriminate.
    + intros j' w' Hlt; lia.
Qed.

(* arg-max over the masked scores: an unselected first maximiser *)
Lemma amax_mask_spec sel sc i v :
  amax (mask sel sc) = Some (i, v) ->
  (i < length sc)%nat /\ ~ In i sel /\ nth i sc 0 = v /\
  (forall j, (j < length sc)%nat -> ~ In j sel -> nth j sc 0 <= v) /\
  (forall j, (j < i)%nat -> ~ In j sel -> nth j sc 0 < v).
Proof.
  intros H. apply amax_spec in H as (Hi & Hn & Hmax & Hfirst).
  unfold mask in *. rewrite mask_from_length in Hi.
  rewrite mask_from_nth in Hn by assumption. cbn in Hn.
  destruct (memb i sel) eqn:Hm; [discriminate|]. injection Hn as Hn.
  apply memb_false in Hm. repeat split; try assumption.
  - intros j Hj Hs. apply (Hmax j). rewrite mask_from_nth by assumption. cbn.
    apply memb_false in Hs. now rewrite Hs.
  - intros j Hj Hs. apply (Hfirst j); [assumption|].
    rewrite mask_from_nth by lia. cbn. apply memb_false in Hs. now rewrite Hs.
Qed.

Lemma amax_mask_some sel sc j :
  (j < length sc)%nat -> ~ In j sel -> amax (mask sel sc) <> None.
Proof.
  intros Hj Hs H. apply amax_none with (j := j) in H.
  unfold mask in H. rewrite mask_from_nth in H by assumption. cbn in H.
  apply memb_false in Hs. rewrite Hs in H. discriminate.
Qed.

Lemma amin_spec l i v :
  amin l = Some (i, v) ->
  (i < length l)%nat /\ nth i l 0 = v /\
  (forall j, (j < length l)%nat -> v <= nth j l 0) /\
  (forall j, (j < i)%nat -> v < nth j l 0).
Proof.
  revert i v; induction l as [|x t IH]; intros i v H; cbn in H; [discriminate|].
  destruct (amin t) as [[j w]|] eqn:Et.
  - specialize (IH j w eq_refl) as (Hj & Hn & Hmin & Hfirst).
    destruct (x <=? w) eqn:Hc; injection H as <- <-.
    + apply Z.leb_le in Hc. split; [cbn; lia|]. split; [reflexivity|]. split.
      * intros [|k] Hk; cbn in *; [lia|]. specialize (Hmin k). lia.
      * intros k Hk; lia.
    + apply Z.leb_gt in Hc. split; [cbn; lia|]. split; [exact Hn|]. split.
      * intros [|k] Hk; cbn in *; [lia|]. apply Hmin; lia.
      * intros [|k] Hk; cbn; [lia|]. apply Hfirst; lia.
  - injection H as <- <-. destruct t as [|y t].
    + split; [cbn; lia|]. split; [reflexivity|]. split.
      * intros [|[|k]] Hk; cbn in *; lia.
      * intros k Hk; lia.
    + cbn in Et. destruct (amin t) as [[? ?]|]; [destruct (y <=? z)|]; discriminate.
Qed.

Lemma amin_some l : l <> [] -> exists i v, amin l = Some (i, v).
Proof.
  destruct l as [|x t]; [congruence|]. intros _. cbn.
  destruct (amin t) as [[j w]|]; [destruct (x <=? w)|]; eauto.
Qed.

(* sorting: sort_nat is a sorted permutation; strictly increasing lists *)
Lemma ins_perm x l : Permutation (x :: l) (ins x l).
Proof.
  induction l as [|y t IH]; cbn; [reflexivity|].
  destruct (Nat.leb x y); [reflexivity|].
  rewrite perm_swap. now constructor.
Qed.

Lemma sort_nat_perm l : Permutation l (sort_nat l).
Proof.
  induction l as [|x t IH]; cbn; [constructor|].
  rewrite <- ins_perm. now constructor.
Qed.

Lemma ins_sorted x l : Sorted le l -> Sorted le (ins x l).
Proof.
  induction l as [|y t IH]; cbn; intros H; [repeat constructor|].
  destruct (Nat.leb x y) eqn:E.
  - apply Nat.leb_le in E. constructor; [assumption|constructor; assumption].
  - apply Nat.leb_gt in E. inversion H as [|? ? Ht Hh]; subst.
    constructor; [auto|].
    destruct t as [|z t]; cbn; [constructor; lia|].
    destruct (Nat.leb x z); constructor; inversion Hh; subst; lia.
Qed.

Lemma sort_nat_sorted l : Sorted le (sort_nat l).
Proof. induction l as [|x t IH]; cbn; [constructor|]. now apply ins_sorted. Qed.

Lemma sorted_filter_seq f k0 m : StronglySorted lt (filter f (seq k0 m)).
Proof.
  revert k0; induction m as [|m IH]; intros k0; cbn; [constructor|].
  destruct (f k0); [|apply IH]. constructor; [apply IH|].
  apply Forall_forall. intros x Hx. apply filter_In in Hx as [Hx _]. apply in_seq in Hx. lia.
Qed.

(* two strictly increasing lists with the same elements are equal *)
Lemma strictly_sorted_unique (l m : list nat) :
  StronglySorted lt l -> StronglySorted lt m -> (forall x, In x l <-> In x m) -> l = m.
Proof.
  revert m; induction l as [|a l IH]; intros m Hl Hm Heq.
  - destruct m as [|b m]; [reflexivity|]. exfalso. apply (proj2 (Heq b)). now left.
  - destruct m as [|b m]; [exfalso; apply (proj1 (Heq a)); now left|].
    inversion Hl as [|? ? Hl' Ha]; inversion Hm as [|? ? Hm' Hb]; subst.
    rewrite Forall_forall in Ha, Hb.
    assert (a = b).
    { destruct (proj1 (Heq a) (or_introl eq_refl)) as [E|E]; [now symmetry|].
      destruct (proj2 (Heq b) (or_introl eq_refl)) as [E'|E']; [assumption|].
      specialize (Ha _ E'). specialize (Hb _ E). lia. }
    subst b. f_equal. apply IH; try assumption.
    intros x. split; intros Hx.
    + destruct (proj1 (Heq x) (or_intror Hx)) as [E|E]; [|assumption].
      subst x. specialize (Ha _ Hx). lia.
    + destruct (proj2 (Heq x) (or_intror Hx)) as [E|E]; [|assumption].
      subst x. specialize (Hb _ Hx). lia.
Qed.

Lemma sorted_nodup_strict (l : list nat) : Sorted le l -> NoDup l -> StronglySorted lt l.
Proof.
  intros Hs Hn. apply Sorted_StronglySorted in Hs; [|intros x y z; lia].
  induction l as [|a l IH]; [constructor|].
  inversion Hs as [|? ? Hs' Ha]; inversion Hn as [|? ? Hna Hn']; subst.
  constructor; [now apply IH|]. rewrite Forall_forall in *. intros x Hx.
  specialize (Ha _ Hx). assert (x <> a) by (intros ->; contradiction). lia.
Qed.
