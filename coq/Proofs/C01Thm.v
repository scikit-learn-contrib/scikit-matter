(* C01: the predicates the statements are written with, and the configurations sfit rejects. *)
From Verif Require Import ListX Greedy Select GreedyP SelectP.

Definition in_rng (n : nat) (l : list nat) := Forall (fun i => (i < n)%nat) l.
Definition stream_ok (n : nat) (s : stream) := Forall (fun v => length v = n) s.
(* the state a previous successful fit left behind (None = never fitted) *)
Definition state_ok cand ycand (prev : option (gst stream)) : Prop :=
  match prev with Some g => GInv stream cand ycand (SP cand) g | None => True end.

Lemma c01_rejections cand ycand prev c inits str :
  (c_full c = true /\ has_thr (c_thr c) = true) \/ resolve_n (length cand) (c_nts c) = None \/
  (c_warm c = true /\ (prev = None \/ exists g0, prev = Some g0 /\ sel g0 = [])) ->
  sfit cand ycand prev c inits str = Rejected.
Proof.
  intros H. unfold sfit. destruct (c_full c && has_thr (c_thr c)) eqn:E; [reflexivity|].
  destruct (resolve_n _ _) eqn:Er; [|reflexivity].
  destruct H as [[A B]|[A|[A [->|(g0 & -> & Eg)]]]];
    [now rewrite A, B in E|congruence|now rewrite A|now rewrite A, Eg].
Qed.
