(* C08: history independence of the CUR family including the warm-start path of
   _CUR/_PCovCUR._continue_greedy_search (conditional re-orthogonalisation, score recomputation),
   for recompute_every in {0, 1}, and across a change of recompute_every between two fits
   (set_params).  Model/CURWarm.v; the linear algebra is abstract and enters through the laws
   L0-L2 stated as hypotheses of the section, the switch theorem through two more. *)
From Verif Require Import ListX Greedy CURSched ListXP GreedyP HistoryP CURWarm.

Lemma upd_nth_noop c : forall x : list Z, nth c x 0 = 0 -> upd_nth c 0 x = x.
Proof.
  induction c as [|c IH]; intros [|a x] H; cbn in *; try reflexivity; [now subst|].
  f_equal. now apply IH.
Qed.

(* masks only look at unselected entries *)
Lemma mask_from_agree sl : forall a b i,
  length a = length b ->
  (forall j, ~ In (i + j)%nat sl -> nth j a 0 = nth j b 0) ->
  mask_from i sl a = mask_from i sl b.
Proof.
  induction a as [|x a IH]; intros [|y b] i Hl Hn; cbn in Hl; try discriminate; [reflexivity|].
  cbn [mask_from]. f_equal.
  - destruct (memb i sl) eqn:Em; [reflexivity|]. apply memb_false in Em.
    f_equal. apply (Hn O). now rewrite Nat.add_0_r.
  - apply IH; [lia|]. intros j Hj. apply (Hn (S j)). now replace (i + S j)%nat with (S i + j)%nat by lia.
Qed.

(* the result buffers after a forced sequence of selections do not depend on the scorer *)
Lemma fold_post_bufs St (upd upd' : St -> nat -> St) cand ycand sl : forall g g',
  sel g = sel g' -> xsel g = xsel g' -> ysel g = ysel g' -> first g = first g' ->
  let a := fold_left (post St upd cand ycand) sl g in
  let b := fold_left (post St upd' cand ycand) sl g' in
  sel a = sel b /\ xsel a = xsel b /\ ysel a = ysel b /\ first a = first b.
Proof.
  induction sl as [|i sl IH]; intros g g' H1 H2 H3 H4; cbn [fold_left]; [auto|].
  apply IH; cbn [post sel xsel ysel first]; now rewrite ?H1, ?H2, ?H3, ?H4.
Qed.

Section CURWarmP.
  Variable M : Type.
  Variable orth : M -> list nat -> nat -> M.
  Variable pi_of : M -> list Z.
  Variable stale : M -> nat -> bool.
  Variable cand : list (list Z).
  Variable ycand : option (list (list Z)).
  Let n := length cand.

  (* L0: one score per candidate *)
  Hypothesis pi_len : forall x, length (pi_of x) = n.
  (* L1: an item that has just been projected out is not stale *)
  Hypothesis stale_self : forall x l i, stale (orth x l i) i = false.
  (* L2: projecting out another item keeps it so *)
  Hypothesis stale_keep : forall x l i c, stale x c = false -> stale (orth x l i) c = false.

  Notation cur := (cur M).
  Notation cu_upd := (cu_upd M orth pi_of).
  Notation cu_cont := (cu_cont M orth pi_of stale).
  Notation cu_reorth := (cu_reorth M orth stale).
  Notation cu_run := (cu_run M orth pi_of cand ycand).
  Notation cu_warm := (cu_warm M orth pi_of stale).
  Notation cu_warm_fit := (cu_warm_fit M orth pi_of stale cand ycand).
  Notation cu_chain := (cu_chain M orth pi_of stale cand ycand).
  Notation cu_post := (cu_post M orth pi_of cand ycand).
  Notation cu_forced := (cu_forced M orth pi_of cand ycand).
  Notation cu_g0 := (cu_g0 M pi_of).
  Notation cu_equiv := (cu_equiv M).
  Notation g_equiv := (g_equiv M).
  Notation score := (cu_score M).

  (* the scorer's part of the loop invariant GInv: one score per candidate *)
  Definition CP (s : cur) : Prop := length (cpi s) = n.
  Lemma CP_len s : CP s -> length (score s) = n.
  Proof. exact (fun H => H). Qed.
  Lemma CP_upd re s i : CP s -> (i < n)%nat -> CP (cu_upd re s i).
  Proof.
    intros H _. unfold CP, CURWarm.cu_upd. cbn [cpi]. rewrite upd_nth_length.
    destruct (refresh_due re _); [apply pi_len|exact H].
  Qed.

  Lemma agree_refl sl a : agree_off sl a a.
  Proof. split; auto. Qed.
  Lemma agree_sym sl a b : agree_off sl a b -> agree_off sl b a.
  Proof. intros [A B]. split; [auto|]. intros j Hj. symmetry. auto. Qed.
  Lemma agree_trans sl a b c : agree_off sl a b -> agree_off sl b c -> agree_off sl a c.
  Proof. intros [A B] [A' B']. split; [congruence|]. intros j Hj. rewrite B, B'; auto. Qed.

  Lemma agree_zero sl i a b :
    agree_off sl a b -> agree_off (sl ++ [i]) (upd_nth i 0 a) (upd_nth i 0 b).
  Proof.
    intros [A B]. split; [now rewrite !upd_nth_length|].
    intros j Hj. assert (Hji : i <> j) by (intros ->; apply Hj, in_or_app; right; now left).
    rewrite !nth_upd_nth_neq by exact Hji. apply B. intros Hs. apply Hj, in_or_app. now left.
  Qed.

  Lemma agree_zero_l sl i a b :
    agree_off sl a b -> agree_off (sl ++ [i]) (upd_nth i 0 a) b.
  Proof.
    intros [A B]. split; [now rewrite upd_nth_length|].
    intros j Hj. assert (Hji : i <> j) by (intros ->; apply Hj, in_or_app; right; now left).
    rewrite nth_upd_nth_neq by exact Hji. apply B. intros Hs. apply Hj, in_or_app. now left.
  Qed.

  Lemma agree_mask sl a b : agree_off sl a b -> mask sl a = mask sl b.
  Proof. intros [A B]. apply mask_from_agree; [exact A|]. intros j Hj. now apply B. Qed.

  Lemma equiv_upd re s1 s2 sl i :
    cu_equiv s1 s2 sl -> cu_equiv (cu_upd re s1 i) (cu_upd re s2 i) (sl ++ [i]).
  Proof.
    intros (A & B & Cc & D). unfold CURWarm.cu_equiv, CURWarm.cu_upd. cbn [xc cns csl cpi].
    rewrite A, B, Cc. split; [reflexivity|]. split; [reflexivity|]. split; [reflexivity|].
    destruct (refresh_due re (S (cns s2))); [apply agree_refl|apply agree_zero, D].
  Qed.

  Lemma best_new_equiv t g1 g2 :
    g_equiv g1 g2 ->
    fst (best_new cur score t g1) = fst (best_new cur score t g2) /\
    g_equiv (snd (best_new cur score t g1)) (snd (best_new cur score t g2)).
  Proof.
    intros (A & B & Cc & D & E). unfold best_new.
    pose proof E as (_ & _ & _ & Ep). unfold CURWarm.cu_score.
    rewrite <- A, <- D, <- (agree_mask _ _ _ Ep).
    destruct (amax (mask (sel g1) (cpi (sst g1)))) as [[i v]|].
    - destruct (has_thr t); [destruct (below t _ v)|]; cbn; (split; [reflexivity|]);
        unfold CURWarm.g_equiv; cbn; auto.
    - cbn. split; [reflexivity|]. unfold CURWarm.g_equiv; auto.
  Qed.

  Lemma post_equiv re g1 g2 i : g_equiv g1 g2 -> g_equiv (cu_post re g1 i) (cu_post re g2 i).
  Proof.
    intros (A & B & Cc & D & E). unfold CURWarm.g_equiv, CURWarm.cu_post, post.
    cbn [sel xsel ysel sst first].
    rewrite A, B, Cc, D. split; [reflexivity|]. split; [reflexivity|]. split; [reflexivity|].
    split; [reflexivity|]. apply equiv_upd. rewrite <- A. exact E.
  Qed.

  (* equivalent objects stay equivalent through any number of selections, for every
     recompute_every and every threshold, and stop at the same time *)
  Theorem run_equiv re t k : forall g1 g2,
    g_equiv g1 g2 ->
    g_equiv (fst (cu_run re t k g1)) (fst (cu_run re t k g2)) /\
    snd (cu_run re t k g1) = snd (cu_run re t k g2).
  Proof.
    induction k as [|k IH]; intros g1 g2 H; cbn; [auto|].
    destruct (best_new_equiv t g1 g2 H) as (A & B).
    unfold CURWarm.cu_run in *. cbn [run].
    destruct (best_new cur score t g1) as [o1 g1'].
    destruct (best_new cur score t g2) as [o2 g2']. cbn in A, B. subst o2.
    destruct o1 as [i|]; [|cbn; auto].
    apply IH. now apply post_equiv.
  Qed.

  (* the invariant of a selector with recompute_every in {0,1}:
     (a) the scores it holds are those of its residual, except on selected items;
     (b) for recompute_every = 1 no selected item is stale. *)
  Definition J (re : nat) (s : cur) (sl : list nat) : Prop :=
    csl s = sl /\ length (cpi s) = n /\ agree_off sl (cpi s) (pi_of (xc s)) /\
    (re <> 0%nat -> forall c, In c sl -> stale (xc s) c = false).

  Lemma J_cold re X : J re (cu_cold M pi_of X) [].
  Proof.
    unfold J, CURWarm.cu_cold; cbn. repeat split; auto using pi_len. intros _ c [].
  Qed.

  Lemma refresh_due_1 m : refresh_due 1 m = true.
  Proof. unfold refresh_due. cbn [Nat.eqb negb andb]. now rewrite Nat.mod_1_r. Qed.

  (* clause (a) through one update: after a refresh the scores are those of the new residual,
     without one the zeroed entry is at a selected item *)
  Lemma J_agree_upd re s sl i : (re <= 1)%nat ->
    agree_off sl (cpi s) (pi_of (xc s)) ->
    agree_off (sl ++ [i]) (cpi (cu_upd re s i)) (pi_of (xc (cu_upd re s i))).
  Proof.
    intros Hre Ha. unfold CURWarm.cu_upd. cbn [cpi xc]. destruct re as [|[|re]]; [| |lia].
    - apply agree_zero_l, Ha.
    - rewrite refresh_due_1. apply agree_zero_l, agree_refl.
  Qed.

  Lemma J_upd re s sl i : (re <= 1)%nat -> J re s sl -> J re (cu_upd re s i) (sl ++ [i]).
  Proof.
    intros Hre (A & B & Cc & D). pose proof (J_agree_upd re s sl i Hre Cc) as [L Ha].
    split; [cbn; now rewrite A|]. split; [now rewrite L, pi_len|]. split; [now split|].
    intros Hr c Hc. assert (re = 1%nat) as -> by lia. cbn [CURWarm.cu_upd xc Nat.eqb].
    apply in_app_or in Hc as [Hc|[<-|[]]]; [apply stale_keep, D; [discriminate|exact Hc]|apply stale_self].
  Qed.

  Lemma run_J re t k : (re <= 1)%nat -> forall g,
    J re (sst g) (sel g) -> J re (sst (fst (cu_run re t k g))) (sel (fst (cu_run re t k g))).
  Proof.
    intros Hre. induction k as [|k IH]; intros g HJ; cbn; [exact HJ|].
    unfold CURWarm.cu_run in *. cbn [run].
    destruct (best_new cur score t g) as [[i|] g1] eqn:Eb; cbn [fst snd];
      destruct (best_new_same _ _ _ _ _ _ Eb) as (A & _ & _ & B).
    - apply IH. cbn [post sel sst]. rewrite A, B. now apply J_upd.
    - now rewrite A, B.
  Qed.

  Lemma reorth_noop re sl0 : forall l x,
    (re <> 0%nat -> forall c, In c l -> stale x c = false) ->
    fold_left (fun x c => if negb (Nat.eqb re 0) && stale x c then orth x sl0 c else x) l x = x.
  Proof.
    induction l as [|c l IH]; intros x H; cbn [fold_left]; [reflexivity|].
    assert (E : negb (Nat.eqb re 0) && stale x c = false).
    { destruct (Nat.eqb re 0) eqn:Er; [reflexivity|]. cbn. apply H; [|now left].
      intros ->. discriminate. }
    rewrite E. apply IH. intros Hr c' Hc'. apply H; [exact Hr|now right].
  Qed.

  (* _continue_greedy_search leaves an object the rest of the session cannot tell from the
     one it started from *)
  Lemma cont_equiv re s sl : J re s sl -> cu_equiv (cu_cont re s) s sl.
  Proof.
    intros (A & B & Cc & D). unfold CURWarm.cu_equiv, CURWarm.cu_cont, CURWarm.cu_reorth.
    cbn [xc cns csl cpi]. rewrite A, reorth_noop by exact D.
    repeat split; try reflexivity; try (now rewrite pi_len); apply agree_sym in Cc; apply Cc.
  Qed.

  Lemma equiv_trans s1 s2 s3 sl : cu_equiv s1 s2 sl -> cu_equiv s2 s3 sl -> cu_equiv s1 s3 sl.
  Proof.
    intros (A & B & Cc & D) (A' & B' & Cc' & D'). unfold CURWarm.cu_equiv.
    repeat split; try congruence; eapply agree_trans; eauto.
  Qed.

  Notation GI := (GInv cur cand ycand CP).

  (* _continue_greedy_search reads the residual, the counter and the selections only *)
  Lemma cont_congr re s1 s2 sl : cu_equiv s1 s2 sl -> cu_cont re s1 = cu_cont re s2.
  Proof. intros (A & B & Cc & _). unfold CURWarm.cu_cont. now rewrite A, B, Cc. Qed.

  (* fit(warm_start=True) starts from an object equivalent to the one the previous fit left *)
  Lemma warm_equiv re g h : g_equiv g h -> J re (sst h) (sel h) -> g_equiv (cu_warm re g) h.
  Proof.
    intros (A & B & Cc & D & E) HJ. unfold CURWarm.g_equiv, CURWarm.cu_warm. cbn [sel xsel ysel first sst].
    split; [exact A|]. split; [exact B|]. split; [exact Cc|]. split; [exact D|].
    rewrite (cont_congr re _ _ _ E), A. now apply cont_equiv.
  Qed.

  (* the chain theorem, recompute_every in {0,1}: every non-decreasing schedule of warm-started
     fits -- each one running the re-orthogonalisation loop and recomputing the scores -- ends
     with the selections, the stored data, first_score_, the residual matrix and the counters
     of the single fit, and with the same score on every item that is still selectable. *)
  Theorem cur_chain_equals_cold re : (re <= 1)%nat ->
    forall sched g h nr,
      g_equiv g h -> GI h -> J re (sst h) (sel h) ->
      nondecreasing_from (length (sel h)) (sched ++ [nr]) -> (nr <= n)%nat ->
      g_equiv (cu_chain re g (sched ++ [nr])) (fst (cu_run re NoThr (nr - length (sel h)) h)).
  Proof.
    intros Hre sched g h nr Hgh HG HJ.
    apply (chain_upto cur score (cu_upd re) cand ycand g_equiv
                      (fun h => GI h /\ J re (sst h) (sel h)) (cu_warm re)); [| | | |exact Hgh|now split].
    - now intros a b (A & _); rewrite A.
    - intros a b Hab [_ Hb]. now apply warm_equiv.
    - intros k a b Hab. now apply run_equiv.
    - intros k a [Ha Hb] Hk.
      destruct (run_len cur score (cu_upd re) cand ycand CP CP_len (CP_upd re) k a Ha Hk) as [Hlen Ha'].
      split; [split; [exact Ha'|now apply run_J]|exact Hlen].
  Qed.

  Lemma g_equiv_refl g : g_equiv g g.
  Proof.
    unfold CURWarm.g_equiv, CURWarm.cu_equiv. repeat split; reflexivity.
  Qed.

  Lemma GI_g0 X : GI (cu_g0 X).
  Proof.
    unfold GInv, CURWarm.cu_g0; cbn. repeat split; auto using NoDup_nil.
    apply pi_len.
  Qed.

  (* ... from the very first (cold) fit: cold fit with k0, then any non-decreasing schedule of
     warm-started fits, against the single cold fit with the last value *)
  Theorem cur_fits_equal_cold re X k0 sched nr :
    (re <= 1)%nat -> nondecreasing_from k0 (sched ++ [nr]) -> (nr <= n)%nat ->
    g_equiv (cu_chain re (fst (cu_run re NoThr k0 (cu_g0 X))) (sched ++ [nr]))
            (fst (cu_run re NoThr nr (cu_g0 X))).
  Proof.
    intros Hre Hmono Hn.
    pose proof (nondecreasing_last _ _ _ Hmono) as Hk.
    destruct (run_len cur score (cu_upd re) cand ycand CP CP_len (CP_upd re) k0 (cu_g0 X) (GI_g0 X)
                      ltac:(cbn; fold n; lia)) as [Hlen HG].
    pose proof (run_J re NoThr k0 Hre (cu_g0 X) (J_cold re X)) as HJ.
    unfold CURWarm.cu_run in *.
    set (h := fst (run cur score (cu_upd re) cand ycand NoThr k0 (cu_g0 X))) in *.
    cbn [CURWarm.cu_g0 sel length Nat.add] in Hlen.
    pose proof (cur_chain_equals_cold re Hre sched h h nr (g_equiv_refl h) HG HJ) as H.
    rewrite Hlen in H. specialize (H Hmono Hn).
    replace nr with (k0 + (nr - k0))%nat at 2 by lia.
    rewrite (run_add cur score (cu_upd re) cand ycand). exact H.
  Qed.

  Section Switch.
    (* _CUR._orthogonalize does not read the result buffers *)
    Hypothesis orth_buffers_irrelevant : forall x l l' c, orth x l c = orth x l' c.
    (* projecting out an item that is not stale changes nothing (X_orthogonalizer on a zero column) *)
    Hypothesis orth_noop : forall x l c, stale x c = false -> orth x l c = x.

    Lemma forced_inv re X sl : (re <= 1)%nat ->
      let g := cu_forced re X sl in
      sel g = sl /\ csl (sst g) = sl /\ cns (sst g) = length sl /\
      agree_off sl (cpi (sst g)) (pi_of (xc (sst g))) /\
      xc (sst g) = (if Nat.eqb re 0 then X else fold_left (fun x c => orth x [] c) sl X).
    Proof.
      intros Hre. cbv zeta. unfold CURWarm.cu_forced.
      induction sl as [|i sl (A & B & N & G & C)] using rev_ind.
      - cbn. repeat split; auto. now destruct (Nat.eqb re 0).
      - rewrite fold_left_app. cbn [fold_left].
        set (g := fold_left (cu_post re) sl (cu_g0 X)) in *.
        change (cu_post re g i) with (post cur (cu_upd re) cand ycand g i). cbn [post sel sst].
        split; [now rewrite A|]. split; [cbn; now rewrite B|].
        split; [cbn; rewrite N, app_length; cbn; lia|]. split; [now apply J_agree_upd|].
        cbn [CURWarm.cu_upd xc]. rewrite B, C, fold_left_app.
        destruct (Nat.eqb re 0); [reflexivity|]. apply orth_buffers_irrelevant.
    Qed.

    (* the re-orthogonalisation loop with the guard = the unguarded sequence of projections *)
    Lemma reorth_is_fold sl0 : forall l x,
      fold_left (fun x c => if negb (Nat.eqb 1 0) && stale x c then orth x sl0 c else x) l x
      = fold_left (fun x c => orth x [] c) l x.
    Proof.
      induction l as [|c l IH]; intros x; cbn [fold_left]; [reflexivity|].
      cbn [Nat.eqb negb andb]. rewrite <- IH. f_equal.
      destruct (stale x c) eqn:Es; [apply orth_buffers_irrelevant|].
      symmetry. now apply orth_noop.
    Qed.

    (* switch 0 -> 1: a selector that made its selections [sl] with recompute_every = 0 and is
       then warm-started with recompute_every = 1 continues exactly as a selector with
       recompute_every = 1 that had made the same selections: same residual, same scores on
       every selectable item, hence (run_equiv) the same further selections. *)
    Theorem switch_0_to_1 X sl :
      g_equiv (cu_warm 1 (cu_forced 0 X sl)) (cu_forced 1 X sl).
    Proof using pi_len orth_buffers_irrelevant orth_noop.
      destruct (forced_inv 0 X sl) as (A0 & B0 & N0 & _ & C0); [lia|].
      destruct (forced_inv 1 X sl) as (A1 & B1 & N1 & G1 & C1); [lia|].
      destruct (fold_post_bufs cur (cu_upd 0) (cu_upd 1) cand ycand sl (cu_g0 X) (cu_g0 X)
                               eq_refl eq_refl eq_refl eq_refl) as (S1 & S2 & S3 & S4).
      cbv zeta in *. cbn [Nat.eqb] in C0, C1. unfold CURWarm.cu_forced in *.
      set (g0 := fold_left (cu_post 0) sl (cu_g0 X)) in *.
      set (g1 := fold_left (cu_post 1) sl (cu_g0 X)) in *.
      assert (Hx : cu_reorth 1 (csl (sst g0)) (xc (sst g0)) = xc (sst g1)).
      { unfold CURWarm.cu_reorth. now rewrite reorth_is_fold, B0, C0, C1. }
      unfold CURWarm.g_equiv, CURWarm.cu_warm. cbn [sel xsel ysel first sst].
      split; [exact S1|]. split; [exact S2|]. split; [exact S3|]. split; [exact S4|].
      unfold CURWarm.cu_equiv, CURWarm.cu_cont. cbn [xc cns csl cpi]. rewrite Hx, A0.
      split; [reflexivity|]. split; [congruence|]. split; [congruence|]. apply agree_sym, G1.
    Qed.

    (* ... stated for the fits themselves: a cold fit with recompute_every = 0, then
       set_params(recompute_every=1) and a warm start asking for k *)
    Theorem switch_fit X k0 k :
      let g0 := fst (cu_run 0 NoThr k0 (cu_g0 X)) in
      g_equiv (cu_warm_fit 1 k g0)
              (fst (cu_run 1 NoThr (k - length (sel g0)) (cu_forced 1 X (sel g0)))).
    Proof using pi_len orth_buffers_irrelevant orth_noop.
      cbv zeta. unfold CURWarm.cu_warm_fit, CURWarm.cu_run.
      destruct (run_is_fold cur score (cu_upd 0) cand ycand k0 (cu_g0 X)) as (new & H1 & H2).
      cbn [CURWarm.cu_g0 sel app] in H2. rewrite !H1, !H2.
      apply (run_equiv 1 NoThr (k - length new)).
      exact (switch_0_to_1 X new).
    Qed.
  End Switch.
End CURWarmP.

(* a toy instance of L1, L2 and of the switch laws: the residual is the vector of squared residual
   norms, projecting an item out zeroes its own entry, scores are the norms *)
Definition toy_orth (x : list Z) (_ : list nat) (i : nat) : list Z := upd_nth i 0 x.
Definition toy_stale (x : list Z) (c : nat) : bool := negb (nth c x 0 =? 0).

Lemma toy_stale_self x l i : toy_stale (toy_orth x l i) i = false.
Proof.
  unfold toy_stale, toy_orth. destruct (Nat.ltb i (length x)) eqn:E.
  - apply Nat.ltb_lt in E. now rewrite nth_upd_nth_eq.
  - apply Nat.ltb_ge in E. rewrite nth_overflow; [reflexivity|now rewrite upd_nth_length].
Qed.

Lemma toy_stale_keep x l i c : toy_stale x c = false -> toy_stale (toy_orth x l i) c = false.
Proof.
  unfold toy_stale, toy_orth. intros H. destruct (Nat.eq_dec i c) as [->|Hn].
  - apply (toy_stale_self x l c).
  - now rewrite nth_upd_nth_neq.
Qed.

Lemma toy_orth_noop x l c : toy_stale x c = false -> toy_orth x l c = x.
Proof.
  unfold toy_stale, toy_orth. intros H. apply upd_nth_noop.
  destruct (nth c x 0 =? 0) eqn:E; [now apply Z.eqb_eq|discriminate].
Qed.
