(* C12 — proofs about Model/KernelCutMx.v: the cut-off program computes U diag(f) U^T, the
   pseudo-inverse of the matrix truncated at the cut-off; a cut-off relative to the largest
   |eigenvalue| makes it homogeneous of degree -1, so the sparse class does not depend on the
   magnitude of the kernels; the sample weights enter through w / sum w only. *)
From mathcomp Require Import all_ssreflect all_algebra.
From Verif Require Import MExpMx MxBox MxBoxP ScalerP KernelNorm KernelNormMx KernelNormP.
From Verif Require Import KernelCut KernelCutMx.
Set Implicit Arguments.
Unset Strict Implicit.
Unset Printing Implicit Defensive.
Import Order.Theory GRing.Theory Num.Theory.
Local Open Scope ring_scope.

Section CutProg.
  Variable F : rcfType.
  Variable m : nat.
  Implicit Types (U : 'M[F]_m) (v d e : 'rV[F]_m) (t c : F).

  Lemma lt_sqr_norm t (x : F) : 0 <= t -> (t ^+ 2 < x * x) = (t < `|x|).
  Proof.
    move=> t0; rewrite -expr2 -(real_normK (num_real x)).
    by rewrite ltr_sqr // nnegrE.
  Qed.

  Lemma cut_nz t (x : F) : 0 <= t -> t < `|x| -> x != 0.
  Proof. by move=> t0 lt; rewrite -normr_gt0 (le_lt_trans t0). Qed.

  Lemma pc_P_mxE t U v : 0 <= t -> pc_P_mx t U v = U *m diag_mx (cut_inv t v) *m U^T.
  Proof.
    move=> t0; rewrite /pc_P_mx /pc_P !evMul evTr evDiag evTr.
    rewrite /cU /cV !evVar /env_of /= !unbox_box.
    congr (_ *m diag_mx _ *m _); apply/rowP => j.
    rewrite trmxK !mxE /= mulr1n lt_sqr_norm //.
    case: ifP => [lt|_]; last by rewrite mulr0.
    by rewrite invfM mulrA divff ?(cut_nz t0 lt) // mul1r.
  Qed.
End CutProg.

Section Sandwich.
  Variable F : rcfType.
  Variable m : nat.
  Variable U : 'M[F]_m.
  Hypothesis orth : U^T *m U = 1%:M.
  Implicit Types (X Y : 'M[F]_m) (d e : 'rV[F]_m).

  Definition sandwich X : 'M[F]_m := U *m X *m U^T.

  Lemma sandwichM X Y : sandwich X *m sandwich Y = sandwich (X *m Y).
  Proof.
    by rewrite /sandwich -!mulmxA (mulmxA U^T U) orth mul1mx.
  Qed.

  Lemma sandwich_tr X : (sandwich X)^T = sandwich X^T.
  Proof. by rewrite /sandwich !trmx_mul trmxK mulmxA. Qed.

  Lemma sandwich_diagM d e :
    sandwich (diag_mx d) *m sandwich (diag_mx e) = sandwich (diag_mx (\row_j (d ord0 j * e ord0 j))).
  Proof. by rewrite sandwichM mulmx_diag. Qed.

  Lemma sandwich_diag_sym d : (sandwich (diag_mx d))^T = sandwich (diag_mx d).
  Proof. by rewrite sandwich_tr tr_diag_mx. Qed.

  (* entrywise generalised inverses on the diagonal give a Moore-Penrose pair *)
  Lemma diag_penrose d e :
    (forall j, d ord0 j * e ord0 j * d ord0 j = d ord0 j) ->
    (forall j, e ord0 j * d ord0 j * e ord0 j = e ord0 j) ->
    penrose (sandwich (diag_mx d)) (sandwich (diag_mx e)).
  Proof.
    move=> h1 h2; split.
    - rewrite !sandwich_diagM; congr (sandwich (diag_mx _)); apply/rowP => j.
      by rewrite !mxE h1.
    - rewrite !sandwich_diagM; congr (sandwich (diag_mx _)); apply/rowP => j.
      by rewrite !mxE h2.
    - by rewrite sandwich_diagM sandwich_diag_sym.
    - by rewrite sandwich_diagM sandwich_diag_sym.
  Qed.
End Sandwich.

Section CutTheorems.
  Variable F : rcfType.
  Variable m : nat.
  Implicit Types (K U : 'M[F]_m) (v : 'rV[F]_m) (t c rc x : F).

  Lemma pinv_cut_penrose t U v :
    0 <= t -> U^T *m U = 1%:M ->
    penrose (U *m diag_mx (cut_keep t v) *m U^T) (pc_P_mx t U v).
  Proof.
    move=> t0 orth; rewrite pc_P_mxE //; apply: (diag_penrose orth) => j; rewrite !mxE.
    - case: ifP => [lt|_]; last by rewrite !mulr0.
      by rewrite divff ?(cut_nz t0 lt) // mul1r.
    - case: ifP => [lt|_]; last by rewrite !mulr0.
      by rewrite mulVf ?(cut_nz t0 lt) // mul1r.
  Qed.

  Lemma pinv_cut_penrose_full t K U v :
    0 <= t -> spectral K U v ->
    (forall j, v ord0 j != 0 -> t < `|v ord0 j|) ->
    penrose K (pc_P_mx t U v).
  Proof.
    move=> t0 [orth eK] gap.
    have ek : cut_keep t v = v.
      apply/rowP => j; rewrite !mxE; case: ifP => // /negbT nlt.
      by apply/esym/eqP; apply: contraNT nlt; apply: gap.
    by have := pinv_cut_penrose v t0 orth; rewrite ek -eK.
  Qed.

  Lemma is_vmax_scale c x v : 0 < c -> is_vmax x v -> is_vmax (c * x) (c *: v).
  Proof.
    move=> c0 [le [j0 ej]]; split=> [j|].
      by rewrite mxE normrM (gtr0_norm c0) ler_pmul2l.
    by exists j0; rewrite mxE normrM (gtr0_norm c0) ej.
  Qed.

  Lemma is_vmax_ge0 x v : is_vmax x v -> 0 <= x.
  Proof. by move=> [_ [j <-]]. Qed.

  Lemma cut_inv_scale c t v : 0 < c -> cut_inv (c * t) (c *: v) = c^-1 *: cut_inv t v.
  Proof.
    move=> c0; apply/rowP => j; rewrite !mxE normrM (gtr0_norm c0) ltr_pmul2l //.
    by case: ifP => _; rewrite ?mulr0 // invfM.
  Qed.

  Lemma pinv_cut_homog c rc x U v :
    0 < c -> 0 <= rc -> is_vmax x v ->
    pc_P_mx (rc * (c * x)) U (c *: v) = c^-1 *: pc_P_mx (rc * x) U v.
  Proof.
    move=> c0 rc0 vm; have x0 := is_vmax_ge0 vm.
    rewrite !pc_P_mxE ?mulr_ge0 // ?(ltW c0) //.
    have -> : rc * (c * x) = c * (rc * x) by rewrite mulrCA.
    by rewrite cut_inv_scale // linearZ /= -scalemxAr -scalemxAl.
  Qed.
End CutTheorems.

Lemma scale_AQAt (F : rcfType) q m (a b : F) (A : 'M[F]_(q, m)) (Q : 'M[F]_m) :
  (a *: A) *m (b *: Q) *m (a *: A)^T = (a * b * a) *: (A *m Q *m A^T).
Proof.
  rewrite -scalemxAl -scalemxAr scalerA linearZ /= -scalemxAr -scalemxAl scalerA.
  by rewrite [a * (a * b)]mulrC.
Qed.

Section Magnitude.
  Variable F : rcfType.
  Variables (cfg : kn_cfg) (n m : nat) (w : 'cV[F]_n).
  Variables (Knm : 'M[F]_(n, m)) (Kmm P : 'M[F]_(m, m)).
  Hypothesis ok : kn_wok cfg w.
  Variable c : F.
  Hypothesis c0 : 0 < c.

  (* kernels c Knm, c Kmm and the pseudo-inverse P / c: means scale by c, scale_ by sqrt c *)
  Lemma sk_fit_scaled :
    let st := sk_fit_mx cfg Knm w Kmm P in
    let st' := sk_fit_mx cfg (c *: Knm) w (c *: Kmm) (c^-1 *: P) in
    st'.1 = c *: st.1 /\ st'.2 = (if kn_trace cfg then Num.sqrt c else 1) *: st.2.
  Proof.
    move=> st st'; rewrite /st /st' !(sk_fit_mxE _ _ _ ok) /=.
    have er : sk_rows_spec cfg w (c *: Knm) = c *: sk_rows_spec cfg w Knm.
      rewrite /sk_rows_spec; case: (kn_center cfg); last by rewrite scaler0.
      by rewrite !wmeanE -scalemxAr.
    have ek : sk_kc_spec cfg w (c *: Knm) = c *: sk_kc_spec cfg w Knm.
      by rewrite /sk_kc_spec er rows_of_scale scalerBr.
    split=> //; rewrite /sk_scale_spec ek; case: (kn_trace cfg); last by rewrite scale1r.
    rewrite scale_AQAt mulfV ?lt0r_neq0 // mul1r.
    rewrite mxtraceZ -mulrA sqrtrM ?ltW //.
    by apply/matrixP => i j; rewrite !mxE mulrnAr.
  Qed.

  Lemma sk_transform_scaled k (Kt : 'M[F]_(k, m)) :
    let st := sk_fit_mx cfg Knm w Kmm P in
    let st' := sk_fit_mx cfg (c *: Knm) w (c *: Kmm) (c^-1 *: P) in
    st.2 ord0 ord0 != 0 ->
    sk_transform_mx st' (c *: Kt)
    = (if kn_trace cfg then Num.sqrt c else c) *: sk_transform_mx st Kt.
  Proof.
    move=> st st' s0; have [e1 e2] := sk_fit_scaled.
    rewrite !sk_transform_mxE -/st -/st' e1 e2 rows_of_scale -scalerBr !scalerA mxE.
    congr (_ *: _); case: (kn_trace cfg); last by rewrite mul1r mulrC.
    have q0 : Num.sqrt c != 0 by rewrite lt0r_neq0 // sqrtr_gt0.
    have ec : c = Num.sqrt c * Num.sqrt c by rewrite -expr2 sqr_sqrtr // ltW.
    by rewrite -/st invfM mulrAC [X in _ * X * _]ec mulrA mulVf // mul1r.
  Qed.

  Lemma sk_nystrom_scaled :
    kn_trace cfg ->
    let st := sk_fit_mx cfg Knm w Kmm P in
    let st' := sk_fit_mx cfg (c *: Knm) w (c *: Kmm) (c^-1 *: P) in
    st.2 ord0 ord0 != 0 ->
    let T := sk_transform_mx st Knm in
    let T' := sk_transform_mx st' (c *: Knm) in
    T' *m (c^-1 *: P) *m T'^T = T *m P *m T^T.
  Proof.
    move=> tr st st' s0 T T'; rewrite /T' (sk_transform_scaled Knm s0) tr -/T.
    rewrite scale_AQAt mulrAC -expr2 sqr_sqrtr ?ltW // mulfV ?lt0r_neq0 //.
    by rewrite scale1r.
  Qed.
End Magnitude.

Lemma cut_nonvacuous (F : rcfType) (rc : F) :
  0 <= rc -> rc < 1 ->
  let v : 'rV[F]_2 := \row_j (if j == ord0 then 4%:R else 0) in
  [/\ is_vmax 4%:R v, spectral (diag_mx v) 1%:M v,
      (forall j, v ord0 j != 0 -> rc * 4%:R < `|v ord0 j|)
    & pc_P_mx (rc * 4%:R) 1%:M v = diag_mx (\row_j (if j == ord0 then 4%:R^-1 else 0))].
Proof.
  move=> rc0 rc1 v.
  have four : (0 : F) < 4%:R by rewrite ltr0n.
  have gap : forall j, v ord0 j != 0 -> rc * 4%:R < `|v ord0 j|.
    move=> j; rewrite !mxE; case: ifP => _; last by rewrite eqxx.
    by move=> _; rewrite (gtr0_norm four) gtr_pmull.
  split=> //.
  - split=> [j|]; last by exists ord0; rewrite !mxE eqxx gtr0_norm.
    by rewrite !mxE; case: ifP => _; [rewrite gtr0_norm | rewrite normr0 ltW].
  - by split; rewrite ?trmx1 ?mulmx1 ?mul1mx.
  - rewrite pc_P_mxE; last by rewrite mulr_ge0 // ltW.
    rewrite trmx1 mulmx1 mul1mx; congr (diag_mx _).
    apply/rowP => j; rewrite !mxE.
    case: (j == ord0).
      by rewrite (gtr0_norm four) gtr_pmull // rc1.
    by rewrite normr0 ltNge mulr_ge0 // ltW.
Qed.

(* the sample weights enter only through their normalisation w / sum w *)
Section NormalisedWeights.
  Variable F : rcfType.
  Variables (cfg : kn_cfg) (n : nat) (w w' : 'cV[F]_n).
  Hypothesis ok : kn_wok cfg w.
  Hypothesis ok' : kn_wok cfg w'.
  Hypothesis e : nw (kn_effw cfg w') = nw (kn_effw cfg w).

  Lemma kn_fit_nw (K : 'M[F]_(n, n)) : kn_fit_mx cfg K w' = kn_fit_mx cfg K w.
  Proof.
    by rewrite (kn_fit_mxE _ ok') (kn_fit_mxE _ ok) /scale_spec /all_spec /rows_spec /centered_mx e.
  Qed.

  Lemma kn_transform_nw k (st : kn_st F n) (Kt : 'M[F]_(k, n)) :
    kn_transform_mx cfg w' st Kt = kn_transform_mx cfg w st Kt.
  Proof. by rewrite (kn_transform_mxE ok') (kn_transform_mxE ok) /centered_mx e. Qed.

  Lemma sk_fit_nw m (Knm : 'M[F]_(n, m)) (Kmm P : 'M[F]_m) :
    sk_fit_mx cfg Knm w' Kmm P = sk_fit_mx cfg Knm w Kmm P.
  Proof.
    rewrite (sk_fit_mxE _ _ _ ok') (sk_fit_mxE _ _ _ ok).
    by rewrite /sk_scale_spec /sk_kc_spec /sk_rows_spec !wmeanE e.
  Qed.
End NormalisedWeights.

Section WeightScale.
  Variable F : rcfType.
  Variables (cfg : kn_cfg) (n : nat) (w : 'cV[F]_n) (a : F).
  Hypothesis a0 : a != 0.
  Hypothesis ok : kn_wok cfg w.

  Lemma kn_wok_scale : kn_wok cfg (a *: w).
  Proof.
    move: ok; rewrite /kn_wok /kn_effw; case: (kn_has_w cfg) => // S0.
    by rewrite wsum_scale mulf_neq0.
  Qed.

  Lemma nw_effw_scale : nw (kn_effw cfg (a *: w)) = nw (kn_effw cfg w).
  Proof. by rewrite /kn_effw; case: (kn_has_w cfg) => //; exact: nw_scale. Qed.

  Lemma weight_scale_invariant :
    [/\ kn_wok cfg (a *: w),
        forall K : 'M[F]_(n, n), kn_fit_mx cfg K (a *: w) = kn_fit_mx cfg K w,
        forall k (st : kn_st F n) (Kt : 'M[F]_(k, n)),
          kn_transform_mx cfg (a *: w) st Kt = kn_transform_mx cfg w st Kt
      & forall m (Knm : 'M[F]_(n, m)) (Kmm P : 'M[F]_m),
          sk_fit_mx cfg Knm (a *: w) Kmm P = sk_fit_mx cfg Knm w Kmm P].
  Proof using a0 ok.
    split=> [|K|k st Kt|m Knm Kmm P]; first exact: kn_wok_scale.
    - exact: (kn_fit_nw ok kn_wok_scale nw_effw_scale).
    - exact: (kn_transform_nw ok kn_wok_scale nw_effw_scale).
    - exact: (sk_fit_nw ok kn_wok_scale nw_effw_scale).
  Qed.
End WeightScale.
