(* C17, layer D — proofs about Model/SparseKDE.v and Model/SparseKDEM.v (stdlib style). *)
From Verif Require Import ListX ListXP SparseKDE SparseKDEM.
From Coq Require Import QArith Permutation.
Open Scope Z_scope.

Lemma ltb_scale k a b : 0 < k -> (k * a <? k * b) = (a <? b).
Proof.
  intros Hk. destruct (a <? b) eqn:E; [apply Z.ltb_lt in E; apply Z.ltb_lt|apply Z.ltb_ge in E; apply Z.ltb_ge]; nia.
Qed.

Lemma amin_scale K l : 0 < K ->
  amin (map (Z.mul K) l) = option_map (fun jv => (fst jv, K * snd jv)) (amin l).
Proof.
  intros HK. induction l as [|x t IH]; [reflexivity|]. cbn [map amin]. rewrite IH.
  destruct (amin t) as [[j w]|]; cbn [option_map fst snd]; [|reflexivity].
  rewrite !Z.leb_antisym, ltb_scale by assumption. now destruct (w <? x).
Qed.

Lemma Forall2_map_l_in {A} (R : A -> A -> Prop) (f : A -> A) l :
  (forall x, In x l -> R x (f x)) -> Forall2 R l (map f l).
Proof.
  induction l as [|a l IH]; intros H; cbn; constructor.
  - apply H; now left.
  - apply IH. intros x Hx. apply H; now right.
Qed.

Lemma Forall2_len {A B} (R : A -> B -> Prop) l m : Forall2 R l m -> length l = length m.
Proof. induction 1; cbn; congruence. Qed.

Lemma Forall2_impl {A B} (R S : A -> B -> Prop) l m :
  (forall a b, R a b -> S a b) -> Forall2 R l m -> Forall2 S l m.
Proof. intros H; induction 1; constructor; auto. Qed.

Lemma nth_upd_nth {A} i j (x d : A) l :
  (i < length l)%nat -> nth j (upd_nth i x l) d = if Nat.eqb i j then x else nth j l d.
Proof.
  intros H. destruct (Nat.eqb i j) eqn:E.
  - apply Nat.eqb_eq in E. subst j. now apply nth_upd_nth_eq.
  - apply Nat.eqb_neq in E. now apply nth_upd_nth_neq.
Qed.

Lemma concat_upd_nth_snoc (mem : list (list nat)) l x :
  (l < length mem)%nat ->
  Permutation (concat (upd_nth l (nth l mem [] ++ [x]) mem)) (x :: concat mem).
Proof.
  revert l; induction mem as [|m mem IH]; intros [|l] H; cbn [length] in H; try lia;
    cbn [upd_nth nth concat].
  - rewrite <- app_assoc. cbn [app]. symmetry. apply Permutation_middle.
  - rewrite IH by lia. symmetry. apply Permutation_middle.
Qed.

Lemma qsum_nil : qsum [] = 0%Q. Proof. reflexivity. Qed.
Lemma qsum_cons a l : qsum (a :: l) = (a + qsum l)%Q. Proof. reflexivity. Qed.

Lemma qsum_app l m : (qsum (l ++ m) == qsum l + qsum m)%Q.
Proof.
  induction l as [|a l IH]; cbn [app]; [rewrite qsum_nil; ring|].
  rewrite !qsum_cons, IH. ring.
Qed.

Lemma qsum_upd_nth j a l :
  (j < length l)%nat -> (qsum (upd_nth j (nth j l 0 + a) l) == qsum l + a)%Q.
Proof.
  revert j; induction l as [|x l IH]; intros [|j] H; cbn [length] in H; try lia;
    cbn [upd_nth nth]; rewrite !qsum_cons; [ring|].
  rewrite IH by lia. ring.
Qed.

Lemma qsum_scale (W : Q) l : (qsum (map (fun x => x / W) l) == qsum l / W)%Q.
Proof.
  induction l as [|a l IH]; cbn [map]; [rewrite qsum_nil; unfold Qdiv; ring|].
  rewrite !qsum_cons, IH. unfold Qdiv. ring.
Qed.

Lemma qsum_repeat0 n : (qsum (repeat 0%Q n) == 0)%Q.
Proof. induction n as [|n IH]; cbn [repeat]; [reflexivity|]. rewrite qsum_cons, IH. ring. Qed.

Definition members_of (lbl : list nat) (j : nat) : list nat :=
  filter (fun i => Nat.eqb (nth i lbl O) j) (seq 0 (length lbl)).

Lemma In_members_of lbl j i : In i (members_of lbl j) <-> (i < length lbl)%nat /\ nth i lbl O = j.
Proof. unfold members_of. rewrite filter_In, in_seq, Nat.eqb_eq. lia. Qed.

Lemma members_of_snoc lbl a j :
  members_of (lbl ++ [a]) j = members_of lbl j ++ (if Nat.eqb a j then [length lbl] else []).
Proof.
  unfold members_of. rewrite app_length. cbn [length]. rewrite Nat.add_1_r, seq_S, filter_app.
  cbn [filter Nat.add]. rewrite app_nth2, Nat.sub_diag by lia. cbn [nth]. f_equal.
  apply filter_ext_in. intros i Hi. apply in_seq in Hi. now rewrite app_nth1 by lia.
Qed.

(* The accumulation loop, for an arbitrary metric (Model/SparseKDEM.v).  It sees a metric row only
   through its arg-min, so the invariant speaks of labels. *)
Lemma label_row_spec (ng : nat) row :
  ng <> O -> length row = ng ->
  let j := label_row row in
  (j < ng)%nat /\
  (forall k, (k < ng)%nat -> nth j row 0 <= nth k row 0) /\
  (forall k, (k < j)%nat -> nth j row 0 < nth k row 0).
Proof.
  intros Hng Hlen. cbv zeta. unfold label_row.
  destruct (amin_some row) as (i & v & E).
  { intros ->. cbn in Hlen. congruence. }
  rewrite E. apply amin_spec in E as (Hi & Hn & Hmin & Hfirst). rewrite Hlen in *. subst v.
  split; [assumption|]. split; [exact Hmin|exact Hfirst].
Qed.

(* np.argmin raises on an empty row, i.e. when there are descriptors but no grid point *)
Lemma predict_rows_some ng rows sw s :
  predict_rows ng rows sw = Some s -> rows_ok ng rows ->
  s = fold_left (astep_row sw) rows (ast0 ng) /\
  Forall (fun r => length r = ng /\ ng <> O) rows.
Proof.
  unfold predict_rows, rows_ok. intros H Hok.
  destruct ng as [|n]; destruct rows as [|r rows]; try discriminate; injection H as <-;
    (split; [reflexivity|]); [constructor|constructor|].
  apply Forall_impl with (2 := Hok). now split.
Qed.

Section Loop.
  Variables (ng : nat) (sw : list Q).
  Let wof (i : nat) : Q := nth i sw 0%Q.

  Lemma run_spec rows :
    Forall (fun r => length r = ng /\ ng <> O) rows ->
    let s := fold_left (astep_row sw) rows (ast0 ng) in
    labels s = map label_row rows /\
    length (members s) = ng /\ length (gweight s) = ng /\ length (npoints s) = ng /\
    (forall j, (j < ng)%nat ->
       nth j (members s) [] = members_of (labels s) j /\
       nth j (npoints s) 0 = Z.of_nat (length (nth j (members s) [])) /\
       (nth j (gweight s) 0 == qsum (map wof (nth j (members s) [])))%Q) /\
    Permutation (concat (members s)) (seq 0 (length rows)) /\
    (qsum (gweight s) == qsum (map wof (seq 0 (length rows))))%Q.
  Proof.
    induction rows as [|p D IH] using rev_ind; intros Hok; cbv zeta.
    - cbn. rewrite !repeat_length. repeat split; rewrite ?nth_repeat; try reflexivity.
      + clear. induction ng as [|n IHn]; cbn; auto.
      + apply qsum_repeat0.
    - apply Forall_app in Hok as (HokD & Hp). apply Forall_inv in Hp as (Hp & Hng).
      rewrite fold_left_app. cbn [fold_left].
      destruct (IH HokD) as (Hl & Lm & Lw & Ln & Hj & Hperm & Htot). clear IH. cbv zeta in *.
      set (s := fold_left (astep_row sw) D (ast0 ng)) in *.
      assert (Hlen : length (labels s) = length D) by (rewrite Hl; apply map_length).
      destruct (label_row_spec ng p Hng Hp) as (Hlt & _).
      unfold astep_row. set (l := label_row p) in *. cbn [labels npoints gweight members].
      rewrite app_length, Nat.add_1_r, seq_S. cbn [length Nat.add].
      split; [now rewrite Hl, map_app|].
      rewrite !upd_nth_length. do 3 (split; [assumption|]). split; [|split].
      + intros j Hj'. destruct (Hj j Hj') as (Hm & Hn & Hw).
        rewrite members_of_snoc, !nth_upd_nth by lia.
        destruct (Nat.eqb l j) eqn:E; [|rewrite app_nil_r; exact (conj Hm (conj Hn Hw))].
        apply Nat.eqb_eq in E. subst j. rewrite <- Hm, Hlen. split; [reflexivity|]. split.
        * rewrite Hn, app_length, Nat.add_1_r. lia.
        * rewrite map_app, qsum_app, <- Hw. cbn. fold (wof (length D)). ring.
      + rewrite concat_upd_nth_snoc, Hlen by lia.
        rewrite <- Permutation_cons_append. now constructor.
      + rewrite qsum_upd_nth, Htot, Hlen, map_app, qsum_app by lia. cbn. fold (wof (length D)). ring.
  Qed.
End Loop.

Lemma assignment_nearest_metric ng rows sw s :
  predict_rows ng rows sw = Some s -> rows_ok ng rows ->
  length (labels s) = length rows /\
  forall i, (i < length rows)%nat ->
    let j := nth i (labels s) O in
    let r := nth i rows [] in
    (j < ng)%nat /\
    (forall k, (k < ng)%nat -> nth j r 0 <= nth k r 0) /\
    (forall k, (k < j)%nat -> nth j r 0 < nth k r 0).
Proof.
  intros H Hok. apply predict_rows_some in H as (-> & Hrows); [|exact Hok].
  destruct (run_spec ng sw rows Hrows) as (Hl & _). cbv zeta in *. rewrite Hl, map_length.
  split; [reflexivity|]. intros i Hi. rewrite nth_map_lt with (d' := []) by assumption.
  rewrite Forall_forall in Hrows. destruct (Hrows (nth i rows [])) as (Hlen & Hng); [now apply nth_In|].
  now apply label_row_spec.
Qed.

Lemma weights_partition_metric ng rows sw s :
  predict_rows ng rows sw = Some s -> rows_ok ng rows -> length sw = length rows ->
  length (members s) = ng /\ length (gweight s) = ng /\ length (npoints s) = ng /\
  (forall j, (j < ng)%nat ->
     nth j (members s) [] = members_of (labels s) j /\
     nth j (npoints s) 0 = Z.of_nat (length (nth j (members s) [])) /\
     (nth j (gweight s) 0 == qsum (map (fun i => nth i sw 0%Q) (nth j (members s) [])))%Q) /\
  (forall i, (i < length rows)%nat ->
     exists j, (j < ng)%nat /\ In i (nth j (members s) []) /\
               forall j', (j' < ng)%nat -> In i (nth j' (members s) []) -> j' = j) /\
  Permutation (concat (members s)) (seq 0 (length rows)) /\
  (qsum (gweight s) == qsum sw)%Q.
Proof.
  intros H Hok Hsw. destruct (assignment_nearest_metric _ _ _ _ H Hok) as (Hlen & Hnear).
  apply predict_rows_some in H as (-> & Hrows); [|exact Hok].
  destruct (run_spec ng sw rows Hrows) as (_ & Lm & Lw & Ln & Hj & Hperm & Htot). cbv zeta in *.
  rewrite <- Hsw, <- as_map_seq in Htot by reflexivity.
  refine (conj Lm (conj Lw (conj Ln (conj Hj (conj _ (conj Hperm Htot)))))).
  intros i Hi. destruct (Hnear i Hi) as (Hlt & _). eexists. split; [exact Hlt|].
  split; [|intros j' Hj' Hin].
  - destruct (Hj _ Hlt) as (-> & _). apply In_members_of. now rewrite Hlen.
  - destruct (Hj _ Hj') as (E & _). rewrite E in Hin. now apply In_members_of in Hin.
Qed.

(* the default metric: rows of the (periodic) squared Euclidean distance *)
Lemma drow_length cell G p : length (drow cell G p) = length G.
Proof. apply map_length. Qed.

Lemma drow_nth cell G p k :
  (k < length G)%nat -> nth k (drow cell G p) 0 = pdist cell p (nth k G []).
Proof. intros H. unfold drow. now rewrite nth_map_lt with (d' := []). Qed.

Lemma predict_is_predict_rows cell G D sw :
  predict cell G D sw = predict_rows (length G) (map (drow cell G) D) sw /\
  rows_ok (length G) (map (drow cell G) D).
Proof.
  split.
  - unfold predict, predict_rows.
    assert (E : forall s, fold_left (astep cell G sw) D s
                          = fold_left (astep_row sw) (map (drow cell G) D) s).
    { induction D as [|p D IH]; intros s; cbn [map fold_left]; [reflexivity|]. apply IH. }
    rewrite E. now destruct G, D.
  - apply Forall_forall. intros r Hr. apply in_map_iff in Hr as (p & <- & _). apply drow_length.
Qed.

Lemma assignment_nearest cell G D sw s :
  predict cell G D sw = Some s ->
  length (labels s) = length D /\
  forall i, (i < length D)%nat ->
    let j := nth i (labels s) O in
    let p := nth i D [] in
    (j < length G)%nat /\
    (forall k, (k < length G)%nat -> pdist cell p (nth j G []) <= pdist cell p (nth k G [])) /\
    (forall k, (k < j)%nat -> pdist cell p (nth j G []) < pdist cell p (nth k G [])).
Proof.
  destruct (predict_is_predict_rows cell G D sw) as [-> Hok]. intros H.
  destruct (assignment_nearest_metric _ _ _ _ H Hok) as (Hl & Hn). rewrite map_length in *.
  split; [exact Hl|]. intros i Hi. specialize (Hn i Hi). cbv zeta in *.
  rewrite nth_map_lt with (d' := []) in Hn by assumption.
  destruct Hn as (Hj & Hmin & Hfirst). split; [exact Hj|].
  split; intros k Hk; rewrite <- !drow_nth by lia; auto.
Qed.

Lemma norm_weights_total w n :
  ~ (qsum (raw_weights w n) == 0)%Q -> (qsum (norm_weights w n) == 1)%Q.
Proof.
  intros H. unfold norm_weights. rewrite qsum_scale. field. exact H.
Qed.

Lemma norm_weights_length w n :
  (forall l, w = Some l -> length l = n) -> length (norm_weights w n) = n.
Proof.
  intros H. unfold norm_weights. rewrite map_length. destruct w as [l|]; cbn.
  - now apply H.
  - apply repeat_length.
Qed.

(* the assignment depends on the data only through the labels *)
Lemma fold_astep_ext cell G cell' G' sw D D' s :
  Forall2 (fun p p' => label cell G p = label cell' G' p') D D' ->
  fold_left (astep cell G sw) D s = fold_left (astep cell' G' sw) D' s.
Proof.
  intros H; revert s; induction H as [|p p' D D' E _ IH]; intros s; [reflexivity|].
  cbn [fold_left]. unfold astep at 2 4. rewrite E. apply IH.
Qed.

Lemma predict_ext cell G cell' G' sw D D' :
  length G = length G' ->
  Forall2 (fun p p' => label cell G p = label cell' G' p') D D' ->
  predict cell G D sw = predict cell' G' D' sw.
Proof.
  intros HL HF. unfold predict.
  rewrite (fold_astep_ext cell G cell' G' sw D D' _ HF), HL.
  destruct G as [|g G], G' as [|g' G']; try discriminate; [|reflexivity].
  destruct HF; reflexivity.
Qed.

(* Translation, periodic images and scaling are one fact: a transformation of grid and descriptors
   that multiplies every distance by the same K > 0 changes no arg-min, hence nothing in the
   assignment. *)
Lemma label_similar K cell cell' G G' p p' :
  0 < K -> Forall2 (fun g g' => pdist cell' p' g' = K * pdist cell p g) G G' ->
  label cell' G' p' = label cell G p.
Proof.
  intros HK H. unfold label, drow.
  replace (map (pdist cell' p') G') with (map (Z.mul K) (map (pdist cell p) G))
    by (induction H; cbn; congruence).
  rewrite amin_scale by assumption. now destruct (amin _) as [[j w]|].
Qed.

(* [Q], [P] relate a grid point / a descriptor to its transform *)
Lemma predict_similar K (Q P : list Z -> list Z -> Prop) cell cell' G G' D D' sw :
  0 < K -> Forall2 Q G G' -> Forall2 P D D' ->
  (forall p p' g g', P p p' -> Q g g' -> pdist cell' p' g' = K * pdist cell p g) ->
  predict cell' G' D' sw = predict cell G D sw.
Proof.
  intros HK HG HD H. symmetry. apply predict_ext; [exact (Forall2_len _ _ _ HG)|].
  eapply Forall2_impl; [|exact HD]. intros p p' Hp. symmetry. apply label_similar with K; [exact HK|].
  eapply Forall2_impl; [|exact HG]. intros g g' Hg. now apply H.
Qed.

Lemma dims_map d (f : list Z -> list Z) X :
  dimsZ d X -> Forall2 (fun r r' => length r = d /\ r' = f r) X (map f X).
Proof. intros H. apply Forall2_map_l_in. intros r Hr. split; [|reflexivity]. now apply (proj1 (Forall_forall _ _) H). Qed.

Lemma vsub_vadd t : forall p g, length p = length t -> length g = length t ->
  vsub (vaddZ t p) (vaddZ t g) = vsub p g.
Proof.
  induction t as [|a t IH]; intros [|x p] [|y g] Hp Hg; cbn [length] in *; try discriminate;
    try reflexivity.
  unfold vsub, vaddZ in *. cbn [map2]. f_equal; [lia|]. apply IH; lia.
Qed.

Lemma pdist_translate cell t p g : length p = length t -> length g = length t ->
  pdist cell (vaddZ t p) (vaddZ t g) = pdist cell p g.
Proof. intros Hp Hg. unfold pdist, delta. now rewrite vsub_vadd. Qed.

(* the wrapped displacement is x mod c or x mod c - c; at the tie 2 (x mod c) = c np.round picks by the
   parity of the quotient, so only the square is a function of x mod c *)
Lemma wrap_cases c x :
  0 < c -> let r := x mod c in (wrap c x = r /\ 2 * r <= c) \/ (wrap c x = r - c /\ c <= 2 * r).
Proof.
  intros Hc. unfold wrap, rhe. cbv zeta.
  pose proof (Z.div_mod x c ltac:(lia)) as Hx.
  set (q := x / c) in *. set (r := x mod c) in *.
  destruct (2 * r <? c) eqn:E1; [apply Z.ltb_lt in E1; left; lia|].
  apply Z.ltb_ge in E1. destruct (c <? 2 * r) eqn:E2; [right; lia|].
  apply Z.ltb_ge in E2. destruct (Z.even q); [left|right]; lia.
Qed.

Lemma wrap_sq c x :
  0 < c ->
  wrap c x * wrap c x =
  let r := x mod c in if 2 * r <? c then r * r else (r - c) * (r - c).
Proof.
  intros Hc. cbv zeta. destruct (wrap_cases c x Hc) as [[-> H]|[-> H]];
    destruct (2 * (x mod c) <? c) eqn:E; try reflexivity;
    [apply Z.ltb_ge in E|apply Z.ltb_lt in E; lia].
  nia.
Qed.

Lemma wrap_sq_shift c x k : 0 < c -> wrap c (x + k * c) * wrap c (x + k * c) = wrap c x * wrap c x.
Proof. intros Hc. rewrite !wrap_sq by assumption. cbv zeta. now rewrite Z.mod_add by lia. Qed.

Lemma wrap_bound c x : 0 < c -> - c <= 2 * wrap c x <= c /\ exists k, wrap c x = x - k * c.
Proof.
  intros Hc. split; [|exists (rhe x c); reflexivity].
  pose proof (Z.mod_pos_bound x c Hc). destruct (wrap_cases c x Hc) as [[-> ?]|[-> ?]]; lia.
Qed.

Lemma pdist_image c :
  cell_pos c -> forall p g m m',
  length p = length c -> length g = length c -> length m = length c -> length m' = length c ->
  pdist (Some c) (map2 Z.add p (map2 Z.mul m c)) (map2 Z.add g (map2 Z.mul m' c))
  = pdist (Some c) p g.
Proof.
  unfold pdist, delta, vsub. induction 1 as [|a c Ha _ IH]; [reflexivity|].
  intros [|x p]; [discriminate|]. intros [|y g]; [discriminate|].
  intros [|k m]; [discriminate|]. intros [|k' m']; [discriminate|]. cbn [length map2]. intros.
  rewrite !sqn_cons, IH by lia. f_equal.
  replace (x + k * a - (y + k' * a)) with ((x - y) + (k - k') * a) by ring.
  now apply wrap_sq_shift.
Qed.

Lemma Forall2_and_l {A B} (P : A -> Prop) (R : A -> B -> Prop) l m :
  Forall P l -> Forall2 R l m -> Forall2 (fun x y => P x /\ R x y) l m.
Proof. intros H; induction 1; inversion H; subst; constructor; auto. Qed.

(* homogeneity: this is what allows the harness to feed dyadic data as integers *)
Definition vscale (k : Z) (u : list Z) : list Z := map (Z.mul k) u.
Definition cscale (k : Z) (cell : cellT) : cellT := option_map (vscale k) cell.

Lemma wrap_scale k c x : 0 < k -> 0 < c -> wrap (k * c) (k * x) = k * wrap c x.
Proof.
  intros Hk Hc. unfold wrap, rhe. cbv zeta.
  rewrite Z.div_mul_cancel_l, Z.mul_mod_distr_l by lia.
  replace (2 * (k * (x mod c))) with (k * (2 * (x mod c))) by ring. rewrite !ltb_scale by assumption.
  destruct (2 * (x mod c) <? c); [ring|]. destruct (c <? 2 * (x mod c)); [ring|].
  destruct (Z.even (x / c)); ring.
Qed.

Lemma vsub_scale k p g : vsub (vscale k p) (vscale k g) = vscale k (vsub p g).
Proof. revert g; induction p as [|x p IH]; intros [|y g]; cbn; f_equal; [ring|apply IH]. Qed.

Lemma wraps_scale k c : 0 < k -> cell_pos c ->
  forall v, map2 wrap (vscale k c) (vscale k v) = vscale k (map2 wrap c v).
Proof.
  intros Hk; induction 1 as [|a c Ha _ IH]; intros [|y v]; try reflexivity.
  cbn. f_equal; [now apply wrap_scale|apply IH].
Qed.

Lemma sqn_scale k u : sqn (vscale k u) = k * k * sqn u.
Proof.
  induction u as [|x u IH]; [cbn; ring|]. cbn [vscale map]. rewrite !sqn_cons. fold (vscale k u).
  rewrite IH. ring.
Qed.

Lemma pdist_scale k cell : 0 < k -> (forall c, cell = Some c -> cell_pos c) ->
  forall p g, pdist (cscale k cell) (vscale k p) (vscale k g) = k * k * pdist cell p g.
Proof.
  intros Hk Hc p g. unfold pdist, delta. rewrite vsub_scale.
  destruct cell as [c|]; cbn [cscale option_map]; [rewrite wraps_scale by auto|]; apply sqn_scale.
Qed.
