(* The specification of "lower-hull vertex" over Z (Model/DCH.v, part 2):
   invariance under positive affine maps of the target and under adding points strictly above
   the hull, soundness of the executable simplex form (Cramer's rule, 1..3 hull dimensions),
   finite sums [sumf] and Caratheodory's theorem in dimension 1.  Stdlib style. *)
From Verif Require Import ListX ListXP DCH.

Lemma zsum_app u v : zsum (u ++ v) = zsum u + zsum v.
Proof. induction u as [|a u IH]; cbn; [reflexivity|]. unfold zsum in *. cbn. rewrite IH. lia. Qed.

Lemma dot_app u1 u2 l1 l2 :
  length u1 = length l1 -> dot (u1 ++ u2) (l1 ++ l2) = dot u1 l1 + dot u2 l2.
Proof.
  revert l1; induction u1 as [|a u1 IH]; intros [|b l1] H; try discriminate; [reflexivity|].
  cbn [app]. rewrite !dot_cons, IH by (cbn in H; congruence). lia.
Qed.

Lemma dot_affine_r a c : forall w l, length w = length l ->
  dot w (map (fun y => a * y + c) l) = a * dot w l + c * zsum w.
Proof.
  induction w as [|x w IH]; intros [|y l] H; try discriminate; [unfold dot, zsum; cbn; lia|].
  cbn [map]. rewrite !dot_cons, IH by (cbn in H; congruence). unfold zsum. cbn. fold (zsum w). lia.
Qed.

Lemma dot_lin_l α β : forall u v l, length u = length v -> length v = length l ->
  dot (map2 (fun a b => α * a + β * b) u v) l = α * dot u l + β * dot v l.
Proof.
  induction u as [|a u IH]; intros [|b v] [|c l] H1 H2; try discriminate; [unfold dot; cbn; lia|].
  cbn [map2]. rewrite !dot_cons, IH by (cbn in *; congruence). lia.
Qed.

Lemma zsum_lin α β : forall u v, length u = length v ->
  zsum (map2 (fun a b => α * a + β * b) u v) = α * zsum u + β * zsum v.
Proof.
  induction u as [|a u IH]; intros [|b v] H; try discriminate; [unfold zsum; cbn; lia|].
  cbn [map2]. unfold zsum in *. cbn. rewrite IH by (cbn in H; congruence). lia.
Qed.

Lemma nth_map2_lin α β : forall u v j, length u = length v ->
  nth j (map2 (fun a b => α * a + β * b) u v) 0 = α * nth j u 0 + β * nth j v 0.
Proof.
  induction u as [|a u IH]; intros [|b v] j H; try discriminate.
  - destruct j; cbn; lia.
  - destruct j; cbn [map2 nth]; [lia|]. apply IH. cbn in H. congruence.
Qed.

Lemma dot_upd x : forall w l i, length w = length l ->
  dot (upd_nth i x w) l = dot w l + (x - nth i w 0) * nth i l 0.
Proof.
  induction w as [|a w IH]; intros [|b l] i H; try discriminate.
  - destruct i; unfold dot; cbn; lia.
  - destruct i; cbn [upd_nth nth]; rewrite !dot_cons; [lia|].
    rewrite IH by (cbn in H; congruence). lia.
Qed.

Lemma zsum_upd_zero : forall w i, zsum (upd_nth i 0 w) = zsum w - nth i w 0.
Proof.
  induction w as [|a w IH]; intros i.
  - destruct i; unfold zsum; cbn; lia.
  - destruct i; cbn [upd_nth nth]; unfold zsum in *; cbn; [lia|]. rewrite IH. lia.
Qed.

Lemma nth_upd_zero w i j : nth j (upd_nth i 0 w) 0 = if Nat.eqb i j then 0 else nth j w 0.
Proof.
  destruct (Nat.eqb i j) eqn:E.
  - apply Nat.eqb_eq in E. subst j. destruct (Nat.lt_ge_cases i (length w)) as [H|H].
    + now apply nth_upd_nth_eq.
    + apply nth_overflow. now rewrite upd_nth_length.
  - apply Nat.eqb_neq in E. now apply nth_upd_nth_neq.
Qed.

Lemma zsum_nonneg : forall l : list Z, (forall j, 0 <= nth j l 0) -> 0 <= zsum l.
Proof.
  induction l as [|b l IH]; intros H; [unfold zsum; cbn; lia|].
  pose proof (H O) as H0. cbn in H0. assert (0 <= zsum l) by (apply IH; intros j; apply (H (S j))).
  unfold zsum in *. cbn. lia.
Qed.

Lemma nonneg_zero_dot : forall w l,
  (forall j, 0 <= nth j w 0) -> zsum w = 0 -> dot w l = 0.
Proof.
  induction w as [|a w IH]; intros l Hn Hz; [reflexivity|].
  assert (Ha : 0 <= a) by (apply (Hn O)).
  assert (Hw : forall j, 0 <= nth j w 0) by (intros j; apply (Hn (S j))).
  pose proof (zsum_nonneg w Hw) as Hs.
  unfold zsum in Hz. cbn in Hz. fold (zsum w) in Hz.
  assert (a = 0) by lia. assert (zsum w = 0) by lia. subst a.
  destruct l as [|b l]; [reflexivity|]. rewrite dot_cons, (IH l Hw) by assumption. lia.
Qed.

Lemma nth_app_weights (w : list Z) x j :
  nth j (w ++ [x]) 0 = if Nat.ltb j (length w) then nth j w 0
                       else if Nat.eqb j (length w) then x else 0.
Proof.
  destruct (Nat.ltb j (length w)) eqn:L.
  - apply Nat.ltb_lt in L. now apply app_nth1.
  - apply Nat.ltb_ge in L. rewrite app_nth2 by assumption.
    destruct (Nat.eqb j (length w)) eqn:E.
    + apply Nat.eqb_eq in E. subst. now rewrite Nat.sub_diag.
    + apply Nat.eqb_neq in E. destruct (j - length w)%nat as [|k] eqn:K; [lia|]. destruct k; reflexivity.
Qed.

Lemma col_app P Q c : col (P ++ Q) c = col P c ++ col Q c.
Proof. unfold col. apply map_app. Qed.

Lemma col_length P c : length (col P c) = length P.
Proof. unfold col. apply map_length. Qed.

Lemma nth_col P c j : (j < length P)%nat -> nth j (col P c) 0 = nth c (nth j P []) 0.
Proof. intros H. unfold col. now apply (nth_map_lt (fun r => nth c r 0)). Qed.

Lemma col_zaffine_0 a c P : col (zaffine a c P) 0 = map (fun y => a * y + c) (col P 0).
Proof. unfold col, zaffine. rewrite !map_map. reflexivity. Qed.

Lemma col_zaffine_S a c P k : col (zaffine a c P) (S k) = col P (S k).
Proof.
  unfold col, zaffine. rewrite map_map. apply map_ext. intros [|y x]; [destruct k; reflexivity|reflexivity].
Qed.

Lemma nth_S_tl (p : list Z) k : nth (S k) p 0 = nth k (tl p) 0.
Proof. destruct p; [destruct k; reflexivity|reflexivity]. Qed.

Lemma map_affine_id (l : list Z) : map (fun v => 1 * v + 0) l = l.
Proof. rewrite <- (map_id l) at 2. apply map_ext. intros; lia. Qed.

(* change of units, column by column: the target by y -> a*y + c with a > 0, every position
   coordinate by x -> s*x with s <> 0.  The same weights serve before and after. *)
Lemma below_combo_units d a c s P P' i :
  0 < a -> s <> 0 -> (i < length P)%nat -> length P' = length P ->
  col P' 0 = map (fun y => a * y + c) (col P 0) ->
  (forall k, col P' (S k) = map (fun v => s * v + 0) (col P (S k))) ->
  (below_combo d P' i <-> below_combo d P i).
Proof.
  intros Ha Hs Hi Hlen C0 CS.
  assert (R : forall k f, col P' k = map f (col P k) -> nth k (nth i P' []) 0 = f (nth k (nth i P []) 0)).
  { intros k f E. rewrite <- !nth_col, E by lia. apply nth_map_lt. now rewrite col_length. }
  assert (K : forall w W, length w = length P -> zsum w = W ->
    ((forall k, (1 <= k <= d)%nat -> dot w (col P' k) = W * nth k (nth i P' []) 0) <->
     (forall k, (1 <= k <= d)%nat -> dot w (col P k) = W * nth k (nth i P []) 0)) /\
    (dot w (col P' 0) <= W * nth 0 (nth i P' []) 0 <-> dot w (col P 0) <= W * nth 0 (nth i P []) 0)).
  { intros w W Hl HW. split.
    - split; intros Hx [|k] Hk; try lia; specialize (Hx (S k) Hk);
        rewrite (R _ _ (CS k)), CS, dot_affine_r in * by (now rewrite col_length); nia.
    - rewrite (R _ _ C0), C0, dot_affine_r, HW by (now rewrite col_length). split; nia. }
  split; intros (w & W & HW & Hl & Hn & Hz & Hsum & Hx & Hy); exists w, W;
    destruct (K w W ltac:(congruence) Hsum) as [Kx Ky];
    (split; [exact HW|]); (split; [congruence|]); (split; [exact Hn|]); (split; [exact Hz|]);
    (split; [exact Hsum|]); (split; [apply Kx; exact Hx|apply Ky; exact Hy]).
Qed.

Theorem below_combo_affine d a c P i :
  0 < a -> (i < length P)%nat ->
  (below_combo d (zaffine a c P) i <-> below_combo d P i).
Proof.
  intros Ha Hi. apply (below_combo_units d a c 1); try assumption; try lia.
  - apply map_length.
  - apply col_zaffine_0.
  - intros k. now rewrite col_zaffine_S, map_affine_id.
Qed.

Lemma dot_snoc w l a b : length w = length l -> dot (w ++ [a]) (l ++ [b]) = dot w l + a * b.
Proof. intros H. rewrite dot_app by assumption. unfold dot at 2. cbn. lia. Qed.

Lemma col_snoc P q c : col (P ++ [q]) c = col P c ++ [nth c q 0].
Proof. apply col_app. Qed.

Lemma split_last {A} (l : list A) n :
  length l = S n -> exists l' x, l = l' ++ [x] /\ length l' = n.
Proof.
  intros H. destruct (exists_last (l := l)) as (l' & x & ->); [intros ->; discriminate|].
  exists l', x. rewrite app_length in H. cbn in H. split; [reflexivity|lia].
Qed.

Lemma nth_le_zsum v i : (forall j, 0 <= nth j v 0) -> nth i v 0 <= zsum v.
Proof.
  intros Hn. pose proof (zsum_upd_zero v i).
  assert (0 <= zsum (upd_nth i 0 v)); [|lia].
  apply zsum_nonneg. intros j. rewrite nth_upd_zero. destruct (Nat.eqb i j); [lia|apply Hn].
Qed.

Lemma dot_concentrated v l i :
  (forall j, 0 <= nth j v 0) -> nth i v 0 = zsum v -> length v = length l ->
  dot v l = zsum v * nth i l 0.
Proof.
  intros Hn E Hl. pose proof (dot_upd 0 v l i Hl) as D.
  rewrite (nonneg_zero_dot (upd_nth i 0 v) l) in D; [lia| |rewrite zsum_upd_zero; lia].
  intros j. rewrite nth_upd_zero. destruct (Nat.eqb i j); [lia|apply Hn].
Qed.

(* the own weight of sample i need not be 0, only less than the total: drop it *)
Lemma below_combo_relax d P i w W :
  (i < length P)%nat -> length w = length P -> (forall j, 0 <= nth j w 0) -> nth i w 0 < W ->
  zsum w = W -> (forall c, (1 <= c <= d)%nat -> dot w (col P c) = W * nth c (nth i P []) 0) ->
  dot w (col P 0) <= W * nth 0 (nth i P []) 0 -> below_combo d P i.
Proof.
  intros Hi Hl Hn Hlt Hs Hx Hy. exists (upd_nth i 0 w), (W - nth i w 0).
  split; [lia|]. split; [now rewrite upd_nth_length|]. split; [|split; [|split; [|split]]].
  - intros j. rewrite nth_upd_zero. destruct (Nat.eqb i j); [lia|apply Hn].
  - now rewrite nth_upd_zero, Nat.eqb_refl.
  - rewrite zsum_upd_zero. lia.
  - intros c Hc. rewrite dot_upd, nth_col, (Hx c Hc) by (rewrite ?col_length; assumption). lia.
  - rewrite dot_upd, nth_col by (rewrite ?col_length; assumption). lia.
Qed.

Lemma below_combo_snoc d P q i : (i < length P)%nat -> below_combo d P i -> below_combo d (P ++ [q]) i.
Proof.
  intros Hi (w & W & HW & Hl & Hn & Hz & Hs & Hx & Hy).
  exists (w ++ [0]), W. split; [exact HW|]. split; [rewrite !app_length; cbn; lia|].
  rewrite (app_nth1 P [q] [] Hi). split; [|split; [|split; [|split]]].
  - intros j. rewrite nth_app_weights. destruct (Nat.ltb j (length w)); [apply Hn|].
    destruct (Nat.eqb j (length w)); lia.
  - rewrite nth_app_weights. replace (Nat.ltb i (length w)) with true; [exact Hz|].
    symmetry. apply Nat.ltb_lt. lia.
  - rewrite zsum_app. unfold zsum at 2. cbn. lia.
  - intros k Hk. rewrite col_snoc, dot_snoc, (Hx k Hk) by (now rewrite col_length). lia.
  - rewrite col_snoc, dot_snoc by (now rewrite col_length). lia.
Qed.

Theorem added_point_not_lower d P q :
  strictly_above d P q -> below_combo d (P ++ [q]) (length P).
Proof.
  intros (w & W & HW & Hl & Hn & Hs & Hx & Hy).
  exists (w ++ [0]), W. split; [exact HW|]. split; [rewrite !app_length; cbn; lia|].
  rewrite nth_middle. split; [|split; [|split; [|split]]].
  - intros j. rewrite nth_app_weights. destruct (Nat.ltb j (length w)); [apply Hn|].
    destruct (Nat.eqb j (length w)); lia.
  - rewrite nth_app_weights, <- Hl, Nat.ltb_irrefl, Nat.eqb_refl. reflexivity.
  - rewrite zsum_app. unfold zsum at 2. cbn. lia.
  - intros k Hk. rewrite col_snoc, dot_snoc, (Hx k Hk) by (now rewrite col_length). lia.
  - rewrite col_snoc, dot_snoc by (now rewrite col_length). lia.
Qed.

Theorem add_above_invariant d P q i :
  (i < length P)%nat -> strictly_above d P q ->
  (below_combo d (P ++ [q]) i <-> below_combo d P i).
Proof.
  intros Hi (v & V & HV & Hvl & Hvn & Hvs & Hvx & Hvy). split; [|now apply below_combo_snoc].
  (* substitute the combination v that lies below q for q; it may use sample i itself *)
  intros (w' & W' & HW' & Hl' & Hn' & Hz' & Hs' & Hx' & Hy').
  rewrite app_length, Nat.add_comm in Hl'. destruct (split_last w' _ Hl') as (w & wq & -> & Hl).
  assert (Hwn : forall j, 0 <= nth j w 0).
  { intros j. specialize (Hn' j). rewrite nth_app_weights in Hn'.
    destruct (Nat.ltb_spec j (length w)); [exact Hn'|]. rewrite nth_overflow by assumption. lia. }
  assert (Hwq : 0 <= wq).
  { specialize (Hn' (length w)). now rewrite nth_app_weights, Nat.ltb_irrefl, Nat.eqb_refl in Hn'. }
  assert (Hwi : nth i w 0 = 0).
  { rewrite nth_app_weights in Hz'. replace (Nat.ltb i (length w)) with true in Hz'; [exact Hz'|].
    symmetry. apply Nat.ltb_lt. lia. }
  rewrite zsum_app in Hs'. unfold zsum at 2 in Hs'. cbn in Hs'.
  rewrite (app_nth1 P [q] [] Hi) in Hx', Hy'.
  assert (Hxx : forall k, (1 <= k <= d)%nat ->
            dot w (col P k) + wq * nth k q 0 = W' * nth k (nth i P []) 0).
  { intros k Hk. rewrite <- (Hx' k Hk), col_snoc, dot_snoc by (now rewrite col_length). reflexivity. }
  rewrite col_snoc, dot_snoc in Hy' by (now rewrite col_length).
  pose proof (zsum_nonneg w Hwn) as Hws. pose proof (nth_le_zsum v i Hvn) as Hvle.
  pose proof (Hvn i) as Hvi. set (vi := nth i v 0) in *.
  apply (below_combo_relax d P i (map2 (fun a b => V * a + wq * b) w v) (V * W')); try assumption.
  - rewrite map2_length. lia.
  - intros j. rewrite nth_map2_lin by lia. specialize (Hwn j). specialize (Hvn j). nia.
  - rewrite nth_map2_lin, Hwi by lia. fold vi.
    (* equality would put all of w' on q and all of v on sample i: q directly above sample i,
       and yet not above it *)
    destruct (Z_lt_le_dec (wq * vi) (V * W')) as [|Hge]; [lia|exfalso].
    assert (Ew : zsum w = 0) by nia. assert (Evi : vi = V) by nia.
    rewrite (nonneg_zero_dot w _ Hwn Ew) in Hy'.
    rewrite (dot_concentrated v _ i Hvn) in Hvy by (rewrite ?col_length; unfold vi in *; lia).
    rewrite nth_col in Hvy by assumption. nia.
  - rewrite zsum_lin by lia. nia.
  - intros k Hk. rewrite dot_lin_l by (rewrite ?col_length; lia).
    specialize (Hxx k Hk). specialize (Hvx k Hk). nia.
  - rewrite dot_lin_l by (rewrite ?col_length; lia). nia.
Qed.

Lemma exists_lazy_existsb {A} (f : A -> bool) l : exists_lazy f l = existsb f l.
Proof. induction l as [|a l IH]; cbn; [reflexivity|]. now destruct (f a). Qed.

Lemma subsets_spec {A} : forall k (l s : list A),
  In s (subsets k l) -> length s = k /\ incl s l.
Proof.
  intros k l; revert k; induction l as [|a l IH]; intros [|k] s H; cbn in H.
  - destruct H as [<-|[]]. split; [reflexivity|intros ? []].
  - destruct H.
  - destruct H as [<-|[]]. split; [reflexivity|intros ? []].
  - apply in_app_or in H as [H|H].
    + apply in_map_iff in H as (s' & <- & Hs'). destruct (IH k s' Hs') as [L I].
      split; [cbn; congruence|]. intros x [<-|Hx]; [now left|right; auto].
    + destruct (IH (S k) s H) as [L I]. split; [assumption|]. intros x Hx. right. auto.
Qed.

Lemma remove_nth_seq : forall n a i j,
  In j (remove_nth i (seq a n)) -> (a <= j < a + n)%nat /\ j <> (a + i)%nat.
Proof.
  induction n as [|n IH]; intros a i j H; [destruct i; destruct H|].
  cbn [seq] in H. destruct i as [|i]; cbn [remove_nth] in H.
  - apply in_seq in H. lia.
  - destruct H as [<-|H]; [lia|]. apply IH in H. lia.
Qed.

(* sparse combinations: weights cs at the sample indices js.  [sumjc js cs l] is sum_k cs_k * l[js_k];
   [wvec n js cs] scatters the weights into a dense vector of length n ([unitv n j c]: c at index j),
   so that dot (wvec n js cs) l = sumjc js cs l.  Sums are written 1 * a + 1 * b here, and scalings
   s * v + 0 in below_combo_units and DCHInsertP.col_zpscale_S, to be instances of dot_lin_l and dot_affine_r. *)
Fixpoint sumjc (js : list nat) (cs : list Z) (l : list Z) : Z :=
  match js, cs with
  | j :: js', c :: cs' => c * nth j l 0 + sumjc js' cs' l
  | _, _ => 0
  end.

Definition unitv (n j : nat) (c : Z) : list Z := upd_nth j c (repeat 0 n).

Lemma unitv_length n j c : length (unitv n j c) = n.
Proof. unfold unitv. now rewrite upd_nth_length, repeat_length. Qed.

Fixpoint wvec (n : nat) (js : list nat) (cs : list Z) : list Z :=
  match js, cs with
  | j :: js', c :: cs' => map2 (fun a b => 1 * a + 1 * b) (unitv n j c) (wvec n js' cs')
  | _, _ => repeat 0 n
  end.

Lemma wvec_length n : forall js cs, length (wvec n js cs) = n.
Proof.
  induction js as [|j js IH]; intros [|c cs]; cbn; try apply repeat_length.
  rewrite map2_length, IH. rewrite unitv_length. lia.
Qed.

Lemma dot_repeat0 n l : dot (repeat 0 n) l = 0.
Proof. revert l; induction n as [|n IH]; intros [|b l]; cbn [repeat]; try reflexivity. rewrite dot_cons, IH. lia. Qed.

Lemma dot_unitv n j c l : length l = n -> dot (unitv n j c) l = c * nth j l 0.
Proof.
  intros Hl. unfold unitv. rewrite dot_upd, dot_repeat0, nth_repeat by (now rewrite repeat_length). lia.
Qed.

Lemma dot_wvec n l : length l = n -> forall js cs,
  (forall j, In j js -> (j < n)%nat) -> dot (wvec n js cs) l = sumjc js cs l.
Proof.
  intros Hl. induction js as [|j js IH]; intros [|c cs] Hj; cbn [wvec sumjc]; try apply dot_repeat0.
  rewrite dot_lin_l.
  - rewrite dot_unitv, IH; [lia| |assumption]. intros k Hk. apply Hj. now right.
  - now rewrite unitv_length, wvec_length.
  - now rewrite wvec_length.
Qed.

Lemma nth_unitv n j c k : nth k (unitv n j c) 0 = if (Nat.ltb k n && Nat.eqb k j)%bool then c else 0.
Proof.
  unfold unitv. destruct (Nat.eqb_spec k j) as [->|N].
  - rewrite andb_true_r. destruct (Nat.ltb_spec j n).
    + apply nth_upd_nth_eq. now rewrite repeat_length.
    + apply nth_overflow. now rewrite upd_nth_length, repeat_length.
  - rewrite andb_false_r, nth_upd_nth_neq by auto. apply nth_repeat.
Qed.

Lemma wvec_nonneg n : forall js cs, (forall c, In c cs -> 0 <= c) -> forall k, 0 <= nth k (wvec n js cs) 0.
Proof.
  induction js as [|j js IH]; intros [|c cs] Hc k; cbn [wvec]; try (rewrite nth_repeat; lia).
  rewrite nth_map2_lin by (now rewrite unitv_length, wvec_length).
  rewrite nth_unitv. assert (0 <= c) by (apply Hc; now left).
  assert (0 <= nth k (wvec n js cs) 0) by (apply IH; intros; apply Hc; now right).
  destruct (Nat.ltb k n && Nat.eqb k j)%bool; lia.
Qed.

Lemma wvec_zero_outside n i : forall js cs, ~ In i js -> nth i (wvec n js cs) 0 = 0.
Proof.
  induction js as [|j js IH]; intros [|c cs] Hi; cbn [wvec]; try apply nth_repeat.
  rewrite nth_map2_lin by (now rewrite unitv_length, wvec_length).
  rewrite nth_unitv, IH by (intros H; apply Hi; now right).
  destruct (Nat.eqb i j) eqn:E; [apply Nat.eqb_eq in E; subst; exfalso; apply Hi; now left|].
  rewrite andb_false_r. lia.
Qed.

Lemma zsum_dot_ones : forall w, dot w (repeat 1 (length w)) = zsum w.
Proof. induction w as [|a w IH]; [reflexivity|]. cbn [length repeat]. rewrite dot_cons, IH. unfold zsum. cbn. lia. Qed.

Lemma nth_repeat1 n k : (k < n)%nat -> nth k (repeat 1 n) 0 = 1.
Proof. revert k; induction n as [|n IH]; intros [|k] H; cbn; try lia. apply IH. lia. Qed.

Lemma sumjc_ones n : forall js cs, (forall j, In j js -> (j < n)%nat) -> length cs = length js ->
  sumjc js cs (repeat 1 n) = zsum cs.
Proof.
  induction js as [|j js IH]; intros [|c cs] Hj Hl; try discriminate; [reflexivity|].
  cbn [sumjc]. rewrite nth_repeat1 by (apply Hj; now left).
  rewrite IH by (cbn in Hl; try congruence; intros; apply Hj; now right). unfold zsum. cbn. lia.
Qed.

Lemma sumjc_scale D l : forall js cs, sumjc js (map (fun c => c * D) cs) l = D * sumjc js cs l.
Proof. induction js as [|j js IH]; intros [|c cs]; cbn [sumjc map]; try lia. rewrite IH. lia. Qed.

Lemma sumjc_dot P c : forall js cs, (forall j, In j js -> (j < length P)%nat) ->
  dot cs (map (fun p => nth c p 0) (map (fun j => nth j P []) js)) = sumjc js cs (col P c).
Proof.
  induction js as [|j js IH]; intros [|x cs] Hj; cbn [map sumjc]; try reflexivity.
  rewrite dot_cons, IH by (intros; apply Hj; now right). rewrite nth_col by (apply Hj; now left). lia.
Qed.

Lemma all_nonneg_scaled_spec D l : all_nonneg_scaled D l = true -> forall a, In a l -> 0 <= a * D.
Proof.
  induction l as [|b l IH]; cbn; intros H a []; subst.
  - destruct (0 <=? a * D) eqn:E; [now apply Z.leb_le|discriminate].
  - destruct (0 <=? b * D); [auto|discriminate].
Qed.

Lemma zsum_map_scale D l : zsum (map (fun c => c * D) l) = D * zsum l.
Proof. induction l as [|a l IH]; [unfold zsum; cbn; lia|]. unfold zsum in *. cbn. rewrite IH. lia. Qed.

(* from Cramer's identities to a convex combination of the other samples *)
Lemma witness_combo d P i js (D : Z) (Dk : list Z) :
  (i < length P)%nat -> length Dk = length js ->
  (forall j, In j js -> (j < length P)%nat /\ j <> i) ->
  D <> 0 -> (forall a, In a Dk -> 0 <= a * D) -> zsum Dk = D ->
  (forall c, (1 <= c <= d)%nat -> sumjc js Dk (col P c) = D * nth c (nth i P []) 0) ->
  (sumjc js Dk (col P 0) - nth 0 (nth i P []) 0 * D) * D <= 0 ->
  below_combo d P i.
Proof.
  intros Hi Hl Hj HD Hpos Hsum Hx Hy.
  set (n := length P). set (cs := map (fun c => c * D) Dk).
  assert (Hjn : forall j, In j js -> (j < n)%nat) by (intros j H; apply (Hj j H)).
  exists (wvec n js cs), (D * D).
  split; [nia|]. split; [apply wvec_length|]. split; [|split; [|split; [|split]]].
  - apply wvec_nonneg. intros c Hc. apply in_map_iff in Hc as (a & <- & Ha). auto.
  - apply wvec_zero_outside. intros H. apply (Hj i H). reflexivity.
  - rewrite <- zsum_dot_ones, wvec_length, dot_wvec by (auto using repeat_length).
    rewrite sumjc_ones by (auto; unfold cs; now rewrite map_length).
    unfold cs. rewrite zsum_map_scale, Hsum. reflexivity.
  - intros c Hc. rewrite (dot_wvec n (col P c) (col_length P c) js cs Hjn). unfold cs.
    rewrite sumjc_scale, (Hx c Hc). lia.
  - rewrite (dot_wvec n (col P 0) (col_length P 0) js cs Hjn). unfold cs. rewrite sumjc_scale. nia.
Qed.

(* Cramer's rule for the Laplace determinant, 1..3 hull dimensions.  Stated for an arbitrary affine
   functional t.(1, x): the numerators Dk are barycentric coordinates scaled by D, and those reproduce
   every affine functional.  One polynomial identity per dimension (the total and each coordinate are
   the unit functionals); proving the d + 1 identities one by one makes [ring] reify the determinants
   d + 1 times, which is where its cost lies. *)
Ltac det_compute :=
  cbv [simplex_D simplex_Dk det detn alt_sum map hrow tl nth seq length drop_col firstn skipn
       app upd_nth zsum fold_right dot map2 Nat.add].

Lemma list_len1 (p : list Z) : length p = 1%nat -> exists a, p = [a].
Proof. destruct p as [|a [|]]; try discriminate. eauto. Qed.
Lemma list_len2 (p : list Z) : length p = 2%nat -> exists a b, p = [a; b].
Proof. destruct p as [|a [|b [|]]]; try discriminate. eauto. Qed.
Lemma list_len3 (p : list Z) : length p = 3%nat -> exists a b c, p = [a; b; c].
Proof. destruct p as [|a [|b [|c [|]]]]; try discriminate. eauto. Qed.
Lemma list_len4 (p : list Z) : length p = 4%nat -> exists a b c e, p = [a; b; c; e].
Proof. destruct p as [|a [|b [|c [|e [|]]]]]; try discriminate. eauto. Qed.

Lemma cramer_affine d S q t :
  (1 <= d <= 3)%nat -> length S = Datatypes.S d -> (forall p, In p S -> length p = Datatypes.S d) ->
  length q = Datatypes.S d -> length t = Datatypes.S d ->
  dot (simplex_Dk S q) (map (fun p => dot t (hrow p)) S) = simplex_D S * dot t (hrow q).
Proof.
  intros Hd HS Hp Hq Ht.
  assert (d = 1 \/ d = 2 \/ d = 3)%nat as [-> | [-> | ->]] by lia.
  - destruct S as [|p0 [|p1 [|]]]; try discriminate.
    destruct (list_len2 p0) as (y0 & a0 & ->); [apply Hp; cbn; auto|].
    destruct (list_len2 p1) as (y1 & a1 & ->); [apply Hp; cbn; auto|].
    destruct (list_len2 q) as (yq & aq & ->); [assumption|].
    destruct (list_len2 t) as (t0 & t1 & ->); [assumption|].
    det_compute. ring.
  - destruct S as [|p0 [|p1 [|p2 [|]]]]; try discriminate.
    destruct (list_len3 p0) as (y0 & a0 & b0 & ->); [apply Hp; cbn; auto|].
    destruct (list_len3 p1) as (y1 & a1 & b1 & ->); [apply Hp; cbn; auto|].
    destruct (list_len3 p2) as (y2 & a2 & b2 & ->); [apply Hp; cbn; auto|].
    destruct (list_len3 q) as (yq & aq & bq & ->); [assumption|].
    destruct (list_len3 t) as (t0 & t1 & t2 & ->); [assumption|].
    det_compute. ring.
  - destruct S as [|p0 [|p1 [|p2 [|p3 [|]]]]]; try discriminate.
    destruct (list_len4 p0) as (y0 & a0 & b0 & c0 & ->); [apply Hp; cbn; auto|].
    destruct (list_len4 p1) as (y1 & a1 & b1 & c1 & ->); [apply Hp; cbn; auto|].
    destruct (list_len4 p2) as (y2 & a2 & b2 & c2 & ->); [apply Hp; cbn; auto 6|].
    destruct (list_len4 p3) as (y3 & a3 & b3 & c3 & ->); [apply Hp; cbn; auto 6|].
    destruct (list_len4 q) as (yq & aq & bq & cq & ->); [assumption|].
    destruct (list_len4 t) as (t0 & t1 & t2 & t3 & ->); [assumption|].
    det_compute. ring.
Qed.

Lemma dot_map_ones {A} : forall (w : list Z) (S : list A), length w = length S ->
  dot w (map (fun _ => 1) S) = zsum w.
Proof.
  induction w as [|a w IH]; intros [|p S] H; try discriminate; [reflexivity|].
  cbn [map]. rewrite dot_cons, IH by (cbn in H; congruence). unfold zsum. cbn. lia.
Qed.

Lemma cramer d S q :
  (1 <= d <= 3)%nat -> length S = Datatypes.S d -> (forall p, In p S -> length p = Datatypes.S d) ->
  length q = Datatypes.S d ->
  length (simplex_Dk S q) = Datatypes.S d /\ zsum (simplex_Dk S q) = simplex_D S /\
  forall c, (1 <= c <= d)%nat ->
    dot (simplex_Dk S q) (map (fun p => nth c p 0) S) = simplex_D S * nth c q 0.
Proof.
  intros Hd HS Hp Hq.
  assert (L : length (simplex_Dk S q) = length S) by (unfold simplex_Dk; now rewrite map_length, seq_length).
  assert (U : forall c p, (c <= d)%nat -> length p = Datatypes.S d ->
               dot (unitv (Datatypes.S d) c 1) (hrow p) = nth c (hrow p) 0).
  { intros c p Hc Hl. rewrite dot_unitv by (destruct p; [discriminate|cbn in *; lia]). lia. }
  assert (E : forall c, (c <= d)%nat ->
    dot (simplex_Dk S q) (map (fun p => nth c (hrow p) 0) S) = simplex_D S * nth c (hrow q) 0).
  { intros c Hc. rewrite <- U by assumption.
    rewrite <- (cramer_affine d S q (unitv (Datatypes.S d) c 1)); try assumption.
    - f_equal. apply map_ext_in. intros p Hin. symmetry. apply U; auto.
    - apply unitv_length. }
  split; [congruence|]. split.
  - pose proof (E 0%nat ltac:(lia)) as E0. unfold hrow in E0. cbn [nth] in E0.
    rewrite <- (dot_map_ones _ S), E0 by assumption. lia.
  - intros [|c] Hc; [lia|]. specialize (E (Datatypes.S c) ltac:(lia)). unfold hrow in E. cbn [nth] in E.
    rewrite nth_S_tl, <- E. f_equal. apply map_ext. intros p. apply nth_S_tl.
Qed.

(* the executable test is sound: a simplex witness yields a convex combination of other
   samples, at the position of sample i, whose target is <= y_i *)
Theorem not_lower_b_sound d P i :
  (1 <= d <= 3)%nat -> (forall p, In p P -> length p = S d) -> (i < length P)%nat ->
  not_lower_b d P i = true -> below_combo d P i.
Proof.
  intros Hd Hdim Hi H. unfold not_lower_b in H. rewrite exists_lazy_existsb in H. apply existsb_exists in H as (js & Hjs & Hw).
  apply subsets_spec in Hjs as [Hlen Hinc].
  assert (Hj : forall j, In j js -> (j < length P)%nat /\ j <> i).
  { intros j Hin. apply Hinc in Hin. apply remove_nth_seq in Hin. lia. }
  set (Sp := map (fun j => nth j P []) js) in *. set (q := nth i P []) in *.
  unfold simplex_witness in Hw.
  destruct (simplex_D Sp =? 0) eqn:ED; [discriminate|]. apply Z.eqb_neq in ED.
  destruct (all_nonneg_scaled (simplex_D Sp) (simplex_Dk Sp q)) eqn:EN; [|discriminate].
  apply Z.leb_le in Hw.
  destruct (cramer d Sp q Hd) as (C0 & C1 & C2).
  - unfold Sp. now rewrite map_length.
  - intros p Hp. unfold Sp in Hp. apply in_map_iff in Hp as (j & <- & Hin). apply Hdim, nth_In, (Hj j Hin).
  - apply Hdim. now apply nth_In.
  - apply (witness_combo d P i js (simplex_D Sp) (simplex_Dk Sp q)); try assumption.
    + congruence.
    + now apply all_nonneg_scaled_spec.
    + intros c Hc. pose proof (C2 c Hc) as E. unfold Sp in E.
      rewrite sumjc_dot in E by (intros j Hin; apply (Hj j Hin)). exact E.
    + unfold Sp in Hw. rewrite sumjc_dot in Hw by (intros j Hin; apply (Hj j Hin)). exact Hw.
Qed.

Fixpoint sumf {A} (f : A -> Z) (l : list A) : Z :=
  match l with [] => 0 | a :: t => f a + sumf f t end.

Lemma sumf_ext_in {A} (f g : A -> Z) l : (forall a, In a l -> f a = g a) -> sumf f l = sumf g l.
Proof. induction l as [|a l IH]; intros H; cbn; [reflexivity|]. rewrite H by now left. rewrite IH; [reflexivity|]. intros; apply H; now right. Qed.

Lemma sumf_add {A} (f g : A -> Z) l : sumf (fun a => f a + g a) l = sumf f l + sumf g l.
Proof. induction l as [|a l IH]; cbn; [reflexivity|]. rewrite IH. lia. Qed.

Lemma sumf_scale {A} (f : A -> Z) k l : sumf (fun a => k * f a) l = k * sumf f l.
Proof. induction l as [|a l IH]; cbn; [lia|]. rewrite IH. lia. Qed.

Lemma sumf_prod {A} (f g : A -> Z) l m :
  sumf (fun a => sumf (fun b => f a * g b) m) l = sumf f l * sumf g m.
Proof. induction l as [|a l IH]; cbn; [reflexivity|]. rewrite IH, sumf_scale. lia. Qed.

Lemma sumf_nonpos {A} (f : A -> Z) l : (forall a, In a l -> f a <= 0) -> sumf f l <= 0.
Proof.
  induction l as [|a l IH]; intros H; cbn; [lia|]. assert (f a <= 0) by (apply H; now left).
  assert (sumf f l <= 0) by (apply IH; intros; apply H; now right). lia.
Qed.

Lemma sumf_le_member {A} (f : A -> Z) l x :
  (forall a, In a l -> f a <= 0) -> In x l -> sumf f l <= f x.
Proof.
  induction l as [|a l IH]; intros H []; cbn.
  - subst. assert (sumf f l <= 0) by (apply sumf_nonpos; intros; apply H; now right). lia.
  - assert (f a <= 0) by (apply H; now left).
    assert (sumf f l <= f x) by (apply IH; [intros; apply H; now right|assumption]). lia.
Qed.

Lemma sumf_pos_exists {A} (f : A -> Z) l : 0 < sumf f l -> exists x, In x l /\ 0 < f x.
Proof.
  induction l as [|a l IH]; cbn; intros H; [lia|].
  destruct (Z_lt_le_dec 0 (f a)) as [Hp|Hn]; [exists a; auto|].
  destruct IH as (x & Hx & Hf); [lia|]. exists x; auto.
Qed.

Lemma sumf_lin {A} (f g : A -> Z) α β l :
  sumf (fun a => α * f a + β * g a) l = α * sumf f l + β * sumf g l.
Proof. induction l as [|a l IH]; cbn; lia. Qed.

Lemma sumf_0 {A} (l : list A) : sumf (fun _ => 0) l = 0.
Proof. induction l; cbn; lia. Qed.

Lemma sumf_le {A} (f g : A -> Z) l : (forall a, In a l -> f a <= g a) -> sumf f l <= sumf g l.
Proof.
  induction l as [|a l IH]; intros H; cbn; [lia|].
  assert (f a <= g a) by (apply H; now left).
  assert (sumf f l <= sumf g l) by (apply IH; intros; apply H; now right). lia.
Qed.

Lemma sumf_nonneg {A} (f : A -> Z) l : (forall a, In a l -> 0 <= f a) -> 0 <= sumf f l.
Proof. intros H. rewrite <- (sumf_0 l). now apply sumf_le. Qed.

Lemma sumf_nonneg_zero {A} (f : A -> Z) l :
  (forall a, In a l -> 0 <= f a) -> sumf f l <= 0 -> forall a, In a l -> f a = 0.
Proof.
  induction l as [|b l IH]; intros Hn Hs a Ha; [destruct Ha|]. cbn in Hs.
  assert (0 <= f b) by (apply Hn; now left).
  assert (0 <= sumf f l) by (apply sumf_nonneg; intros; apply Hn; now right).
  destruct Ha as [<-|Ha]; [lia|]. apply IH; [intros; apply Hn; now right|lia|assumption].
Qed.

Lemma sumf_nonneg_pos {A} (f : A -> Z) l x :
  (forall a, In a l -> 0 <= f a) -> In x l -> 0 < f x -> 0 < sumf f l.
Proof.
  intros Hn Hx Hp. destruct (Z_lt_le_dec 0 (sumf f l)) as [|Hle]; [assumption|exfalso].
  pose proof (sumf_nonneg_zero f l Hn Hle x Hx). lia.
Qed.

Lemma sumf_wpos {A} (w f : A -> Z) l :
  (forall a, In a l -> 0 <= w a) -> 0 < sumf (fun a => w a * f a) l ->
  exists a, In a l /\ 0 < w a /\ 0 < f a.
Proof.
  intros Hw H. destruct (sumf_pos_exists _ l H) as (a & Ha & Hp). cbv beta in Hp.
  exists a. specialize (Hw a Ha). assert (w a <> 0) by (intros E; rewrite E in Hp; lia).
  split; [assumption|split; nia].
Qed.

Lemma sumf_wlin {A} (w φ f g : A -> Z) α β γ l :
  (forall t, φ t = α * f t + β * g t + γ) ->
  sumf (fun t => w t * φ t) l
  = α * sumf (fun t => w t * f t) l + β * sumf (fun t => w t * g t) l + γ * sumf w l.
Proof. intros E. induction l as [|a l IH]; cbn; [ring|]. rewrite IH, E. ring. Qed.

Lemma sumf_vanish {A} (w f : A -> Z) l :
  (forall a, In a l -> 0 <= w a) -> sumf w l <= 0 -> sumf (fun a => w a * f a) l = 0.
Proof.
  intros Hn Hz. rewrite (sumf_ext_in _ (fun _ => 0)); [apply sumf_0|].
  intros a Ha. rewrite (sumf_nonneg_zero w l Hn Hz a Ha). lia.
Qed.

(* Caratheodory in dimension 1, over any index type: weighted points (U, V) in the plane whose
   centroid lies on the half-line U = 0, V <= 0.  Then a weighted point lies on that half-line, or
   two points on either side of U = 0 span a segment that passes on or below the origin. *)
Section Caratheodory1.
  Context {A : Type}.
  Variables U V : A -> Z.
  Variable T : list A.
  Let S w f := sumf (fun t => w t * f t) T.

  (* weights wl, wr whose moments cancel and whose V-average is <= 0: sum U a * V b - U b * V a
     over the pairs, weighted; it is >= 0, so (over Z: 0 <= f iff 0 < f + 1) some term is *)
  Lemma straddle wl wr :
    (forall t, In t T -> 0 <= wl t) -> (forall t, In t T -> 0 <= wr t) ->
    0 < sumf wl T -> 0 < sumf wr T ->
    0 <= S wr U -> S wl U = - S wr U -> S wl V + S wr V <= 0 ->
    exists a b, In a T /\ In b T /\ 0 < wl a /\ 0 < wr b /\ 0 <= U a * V b - U b * V a.
  Proof.
    intros Nl Nr Pl Pr Mr Ml Hv.
    assert (Q : 0 < S wl (fun a => S wr (fun b => U a * V b - U b * V a + 1))).
    { unfold S at 1. rewrite (sumf_wlin wl _ U V (S wr V) (- S wr U) (sumf wr T)).
      2:{ intros a. unfold S. rewrite (sumf_wlin wr _ V U (U a) (- V a) 1) by (intros; ring). ring. }
      fold (S wl U) (S wl V). rewrite Ml.
      assert (0 <= S wr U * - (S wl V + S wr V)) by (apply Z.mul_nonneg_nonneg; lia).
      assert (0 < sumf wr T * sumf wl T) by (apply Z.mul_pos_pos; assumption). lia. }
    destruct (sumf_wpos wl _ T Nl Q) as (a & Ha & Hwa & Hq).
    destruct (sumf_wpos wr _ T Nr Hq) as (b & Hb & Hwb & Hg).
    exists a, b. repeat split; auto; lia.
  Qed.

  Variable Wt : A -> Z.
  Hypothesis Hw : forall t, In t T -> 0 <= Wt t.
  Hypothesis HW : 0 < sumf Wt T.
  Hypothesis Hx : sumf (fun t => Wt t * U t) T = 0.
  Hypothesis Hy : sumf (fun t => Wt t * V t) T <= 0.

  (* the weights left of, right of and on U = 0 *)
  Let wl t := if U t <? 0 then Wt t else 0.
  Let wr t := if 0 <? U t then Wt t else 0.
  Let w0 t := if U t =? 0 then Wt t else 0.

  Theorem caratheodory_1d :
    (exists t, In t T /\ 0 < Wt t /\ U t = 0 /\ V t <= 0) \/
    (exists a b, In a T /\ In b T /\ U a < 0 /\ 0 < U b /\ 0 <= U a * V b - U b * V a).
  Proof.
    assert (Cl : forall t, In t T -> 0 <= wl t /\ 0 <= wr t /\ 0 <= w0 t /\
                   (0 < wl t -> U t < 0) /\ (0 < wr t -> 0 < U t) /\ (0 < w0 t -> U t = 0 /\ 0 < Wt t) /\
                   Wt t = wl t + wr t + w0 t /\ w0 t * U t = 0 /\
                   0 <= wl t * (- U t - 1) /\ 0 <= wr t * (U t - 1)).
    { intros t Ht. specialize (Hw t Ht). unfold wl, wr, w0.
      destruct (Z.ltb_spec (U t) 0), (Z.ltb_spec 0 (U t)), (Z.eqb_spec (U t) 0); nia. }
    assert (Nl : forall t, In t T -> 0 <= wl t) by (intros; now apply Cl).
    assert (Nr : forall t, In t T -> 0 <= wr t) by (intros; now apply Cl).
    assert (N0 : forall t, In t T -> 0 <= w0 t) by (intros; now apply Cl).
    assert (Sp : forall f, S Wt f = S wl f + S wr f + S w0 f).
    { intros f. unfold S. rewrite <- !sumf_add. apply sumf_ext_in. intros t Ht.
      destruct (Cl t Ht) as (_&_&_&_&_&_&->&_). lia. }
    assert (SW : sumf Wt T = sumf wl T + sumf wr T + sumf w0 T).
    { rewrite <- !sumf_add. apply sumf_ext_in. intros t Ht. now apply Cl. }
    change (S Wt U = 0) in Hx. change (S Wt V <= 0) in Hy. rewrite Sp in Hx, Hy.
    (* over Z a weight off U = 0 carries a moment of at least its size *)
    assert (Ml : sumf wl T <= - S wl U).
    { assert (0 <= S wl (fun t => - U t - 1)) by (apply sumf_nonneg; intros; now apply Cl).
      unfold S in H. rewrite (sumf_wlin wl _ U U (-1) 0 (-1)) in H by (intros; ring). fold (S wl U) in H. lia. }
    assert (Mr : sumf wr T <= S wr U).
    { assert (0 <= S wr (fun t => U t - 1)) by (apply sumf_nonneg; intros; now apply Cl).
      unfold S in H. rewrite (sumf_wlin wr _ U U 1 0 (-1)) in H by (intros; ring). fold (S wr U) in H. lia. }
    assert (M0 : S w0 U = 0).
    { unfold S. rewrite (sumf_ext_in _ (fun _ => 0)); [apply sumf_0|]. intros; now apply Cl. }
    pose proof (sumf_nonneg wl T Nl). pose proof (sumf_nonneg wr T Nr). pose proof (sumf_nonneg w0 T N0).
    destruct (Z_lt_le_dec 0 (sumf w0 T - S w0 V)) as [HL|HL].
    - (* the points on U = 0 have V <= 0 on average *)
      left. destruct (sumf_wpos w0 (fun t => 1 - V t) T N0) as (t & Ht & Hp & Hv).
      + rewrite (sumf_wlin w0 _ V V (-1) 0 1) by (intros; ring). fold (S w0 V). lia.
      + exists t. destruct (Cl t Ht) as (_&_&_&_&_&Hc0&_). destruct (Hc0 Hp).
        repeat split; (assumption || lia).
    - right.
      (* a side without weight has no moment, then neither has the other, and all the weight
         sits on U = 0 with V > 0 on average *)
      assert (Pl : 0 < sumf wl T).
      { destruct (Z_lt_le_dec 0 (sumf wl T)) as [|Z]; [assumption|exfalso].
        pose proof (sumf_vanish wl U T Nl Z). pose proof (sumf_vanish wl V T Nl Z).
        fold (S wl U) (S wl V) in *. assert (Zr : sumf wr T <= 0) by lia.
        pose proof (sumf_vanish wr V T Nr Zr). fold (S wr V) in *. lia. }
      assert (Pr : 0 < sumf wr T).
      { destruct (Z_lt_le_dec 0 (sumf wr T)) as [|Z]; [assumption|exfalso].
        pose proof (sumf_vanish wr U T Nr Z). fold (S wr U) in *. lia. }
      destruct (straddle wl wr Nl Nr Pl Pr) as (a & b & Ha & Hb & Hwa & Hwb & G); try lia.
      exists a, b. destruct (Cl a Ha) as (_&_&_&Ua&_). destruct (Cl b Hb) as (_&_&_&_&Ub&_). auto 8.
  Qed.
End Caratheodory1.

Lemma sumf_combine_dot (c : nat) : forall (w : list Z) (P : list (list Z)),
  length w = length P ->
  sumf (fun t => fst t * nth c (snd t) 0) (combine w P) = dot w (col P c).
Proof.
  induction w as [|a w IH]; intros [|p P] H; try discriminate; [reflexivity|].
  cbn [combine sumf col map fst snd]. fold (col P c). rewrite dot_cons, IH by (cbn in H; congruence). reflexivity.
Qed.

Lemma sumf_combine_zsum : forall (w : list Z) (P : list (list Z)),
  length w = length P -> sumf fst (combine w P) = zsum w.
Proof.
  induction w as [|a w IH]; intros [|p P] H; try discriminate; [reflexivity|].
  cbn [combine sumf fst]. rewrite IH by (cbn in H; congruence). unfold zsum. cbn. lia.
Qed.

Lemma in_combine_nth (w : list Z) (P : list (list Z)) t :
  length w = length P -> In t (combine w P) ->
  exists j, (j < length P)%nat /\ t = (nth j w 0, nth j P []).
Proof.
  intros Hl Ht. destruct (In_nth _ _ (0, []) Ht) as (j & Hj & <-).
  rewrite combine_length, Hl, Nat.min_id in Hj. exists j. split; [assumption|]. now apply combine_nth.
Qed.

Lemma sumf_rel c x (w : list Z) P : length w = length P ->
  sumf (fun t => fst t * (nth c (snd t) 0 - x)) (combine w P) = dot w (col P c) - x * zsum w.
Proof.
  intros Hl. rewrite (sumf_ext_in _ (fun t => 1 * (fst t * nth c (snd t) 0) + - x * fst t)) by (intros; ring).
  rewrite sumf_lin, sumf_combine_dot, sumf_combine_zsum by assumption. lia.
Qed.

Lemma cross_pt1 pa pb pq :
  cross (pt1 pa) (pt1 pb) (pt1 pq)
  = (nth 1 pa 0 - nth 1 pq 0) * (nth 0 pb 0 - nth 0 pq 0) - (nth 1 pb 0 - nth 1 pq 0) * (nth 0 pa 0 - nth 0 pq 0).
Proof. unfold cross, pt1. cbn [fst snd]. ring. Qed.
