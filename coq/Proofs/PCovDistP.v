(* C02: the distance PCov-FPS reads off pcovr_distance_,
       d(i, j) = D_ii + D_jj - 2 D_ij,
   for the layer-A programs cov_prog (pcovr_covariance, feature direction) and kern_prog
   (pcovr_kernel, sample direction) of Model/PCovR.v, over an arbitrary real closed field and
   for all shapes: it is the mixed squared Euclidean distance of the embedded items, hence
   symmetric, zero on the diagonal and non-negative for 0 <= mixing <= 1 (which is what makes
   "farthest" meaningful and lets the loop theorems of Proofs/FPSP.v apply).  ssreflect style. *)
From mathcomp Require Import all_ssreflect all_algebra.
From mathcomp Require Import ring.
From Verif Require Import MExpMx PCovR PCovRP PCovRProg C03Thm PCovRExample.
Import GRing.Theory Num.Theory.
Set Implicit Arguments.
Unset Strict Implicit.
Unset Printing Implicit Defensive.
Local Open Scope ring_scope.

Section InducedDistance.
  Variable F : rcfType.

  (* the distance _PCovFPS._update_hausdorff forms from a matrix *)
  Definition idist r (M : 'M[F]_r) (i j : 'I_r) : F := M i i + M j j - 2%:R * M i j.

  (* stated on scalars: ring does not normalise goals that mention matrix entries *)
  Lemma dsq_self (x : F) : x + x - 2%:R * x = 0.
  Proof. ring. Qed.
  Lemma dsq_lin (s t a1 a2 a3 b1 b2 b3 : F) :
    s * a1 + t * b1 + (s * a2 + t * b2) - 2%:R * (s * a3 + t * b3)
    = s * (a1 + a2 - 2%:R * a3) + t * (b1 + b2 - 2%:R * b3).
  Proof. ring. Qed.
  Lemma dsq_sq (x y : F) : x * x + y * y - 2%:R * (x * y) = (x - y) ^+ 2.
  Proof. ring. Qed.
  Lemma dsq_swap (x y z : F) : x + y - 2%:R * z = y + x - 2%:R * z.
  Proof. ring. Qed.

  Lemma idist_self r (M : 'M[F]_r) i : idist M i i = 0.
  Proof. exact: dsq_self. Qed.

  Lemma idist_lin r (s t : F) (A B : 'M[F]_r) i j :
    idist (s *: A + t *: B) i j = s * idist A i j + t * idist B i j.
  Proof. rewrite /idist !mxE; exact: dsq_lin. Qed.

  (* Gram matrix: the induced distance is the squared Euclidean distance of the rows *)
  Lemma idist_gram r c (B : 'M[F]_(r, c)) i j :
    idist (B *m B^T) i j = \sum_q (B i q - B j q) ^+ 2.
  Proof.
    rewrite /idist !mxE mulr_sumr -big_split /= -sumrB; apply: eq_bigr => q _.
    rewrite !mxE; exact: dsq_sq.
  Qed.

  Lemma idist_gram_ge0 r c (B : 'M[F]_(r, c)) i j : 0 <= idist (B *m B^T) i j.
  Proof. by rewrite idist_gram sumr_ge0 // => q _; rewrite sqr_ge0. Qed.

  Lemma idist_mix_ge0 r c1 c2 (a : F) (B : 'M[F]_(r, c1)) (C : 'M[F]_(r, c2)) i j :
    0 <= a <= 1 -> 0 <= idist (a *: (B *m B^T) + (1 - a) *: (C *m C^T)) i j.
  Proof.
    by case/andP=> a0 a1; rewrite idist_lin addr_ge0 // mulr_ge0 ?idist_gram_ge0 ?subr_ge0.
  Qed.

  Lemma idist_sym r (M : 'M[F]_r) i j : M^T = M -> idist M i j = idist M j i.
  Proof.
    move=> hs; rewrite /idist; have -> : M j i = M i j by rewrite -[in LHS]hs mxE.
    exact: dsq_swap.
  Qed.
End InducedDistance.

Section ProgDistance.
  Variable F : rcfType.
  Variables (n m p : nat) (env : env_mx F).
  Local Notation X := (e_X n m env).
  Local Notation Yh := (e_Yh n p env).
  Local Notation a := (e_a env).
  Local Notation Ct := (eval_mx env (cov_prog n m p)).
  Local Notation Kt := (eval_mx env (kern_prog n m p)).
  Local Notation CY := (eval_mx env (cy_prog n m p)).

  Lemma cov_as_gram : Ct = a *: (X^T *m (X^T)^T) + (1 - a) *: (CY *m CY^T).
  Proof. by rewrite cov_formula cy_formula /f_Ct trmxK addrC. Qed.

  (* feature direction: mixing * |x_i - x_j|^2 + (1 - mixing) * |cy_i - cy_j|^2, x_i = column i of X,
     cy_i = row i of C_Y = C^(-1/2) X^T Y *)
  Theorem cov_distance (i j : 'I_m) :
    idist Ct i j = a * (\sum_q (X q i - X q j) ^+ 2) + (1 - a) * (\sum_q (CY i q - CY j q) ^+ 2).
  Proof.
    rewrite cov_as_gram idist_lin !idist_gram; congr (_ * _ + _).
    by apply: eq_bigr => q _; rewrite !mxE.
  Qed.

  (* sample direction: mixing * |x_i - x_j|^2 + (1 - mixing) * |y_i - y_j|^2 on rows *)
  Theorem kern_distance (i j : 'I_n) :
    idist Kt i j = a * (\sum_q (X i q - X j q) ^+ 2) + (1 - a) * (\sum_q (Yh i q - Yh j q) ^+ 2).
  Proof. by rewrite kern_formula s_Kt_alt idist_lin !idist_gram. Qed.

  (* rows and columns of the matrix agree (np.take(.., axis=1) reads a column): *)
  Theorem cov_distance_sym (i j : 'I_m) : idist Ct i j = idist Ct j i.
  Proof. exact: idist_sym (covariance_sym n m p env). Qed.

  Theorem cov_distance_spec : 0 <= a <= 1 ->
    forall i j : 'I_m,
      [/\ idist Ct i j = a * (\sum_q (X q i - X q j) ^+ 2) + (1 - a) * (\sum_q (CY i q - CY j q) ^+ 2),
          0 <= idist Ct i j, idist Ct i i = 0 & Ct i j = Ct j i].
  Proof.
    move=> ha i j; split; [exact: cov_distance | | exact: idist_self | by rewrite -[in LHS]covariance_sym mxE].
    by rewrite cov_as_gram idist_mix_ge0.
  Qed.

  Theorem kern_distance_spec : 0 <= a <= 1 ->
    forall i j : 'I_n,
      [/\ idist Kt i j = a * (\sum_q (X i q - X j q) ^+ 2) + (1 - a) * (\sum_q (Yh i q - Yh j q) ^+ 2),
          0 <= idist Kt i j, idist Kt i i = 0 & Kt i j = Kt j i].
  Proof.
    move=> ha i j; split; [exact: kern_distance | | exact: idist_self |].
    - by rewrite kern_formula s_Kt_alt idist_mix_ge0.
    - by rewrite -[in LHS]kernel_sym mxE.
  Qed.
End ProgDistance.

(* non-vacuity: an environment with 0 < mixing < 1 and X <> 0 (the two-sample example of
   Proofs/PCovRExample.v at mixing 1/2), on which the sample-direction distance between the two
   items is 4 *)
Section DistExample.
  Variable F : rcfType.
  Lemma dist_example :
    exists env : env_mx F,
      [/\ 0 <= e_a env <= 1, e_X 2 1 env != 0
        & idist (eval_mx env (kern_prog 2 1 1)) ord0 (lift ord0 ord0) = 4%:R].
  Proof.
    exists (ex_env (2^-1 : F)); split.
    - rewrite ex_mixing invr_ge0 ler0n /= invf_le1 ?ltr0n // ler1n //.
    - exact: ex_X_neq0.
    - rewrite kern_distance ex_mixing !big_ord_recl !big_ord0 /e_X /e_Yh !mxE /ex_entry /= /pm1 /=.
      have h : (1 - 2^-1 : F) = 2^-1.
        by apply: (mulfI (x := 2%:R)); rewrite ?pnatr_eq0 // mulrBr mulfV ?pnatr_eq0 // mulr1; ring.
      rewrite h; have -> : (1 - -1 : F) = 2%:R by ring.
      rewrite addr0 -mulrDr -mulr2n -mulr_natl mulrA mulVf ?pnatr_eq0 // mul1r; ring.
  Qed.
End DistExample.
