(* C17, layer D — the assignment for an ARBITRARY metric.

   _NearestGridAssigner.predict never looks at positions: per descriptor it evaluates
       descriptor2grid = self.metric(point.reshape(1, -1), self.grid_pos)
   (self.metric = the user's `metric=` callable closed over squared=True and metric_params, the
   default being periodic_pairwise_euclidean_distances) and takes np.argmin of that row.  The model
   below therefore takes the metric's own rows as input: rows[i][k] = metric(descriptor i, grid k).
   Model/SparseKDE.v is the instance rows = map (drow cell G) D (lemma predict_is_predict_rows in
   Proofs/SparseKDEP.v).  Values are integers (the harness scales dyadic data), weights rationals.
   Definitions only. *)
From Verif Require Import ListX SparseKDE.
From Coq Require Import QArith.
Open Scope Z_scope.

(* np.argmin(descriptor2grid): first index of the minimum *)
Definition label_row (row : list Z) : nat :=
  match amin row with Some (j, _) => j | None => O end.

(* one iteration of the loop in predict, given the metric row of the current descriptor *)
Definition astep_row (sw : list Q) (s : ast) (row : list Z) : ast :=
  let i := length (labels s) in
  let l := label_row row in
  mk_ast (labels s ++ [l])
         (upd_nth l (nth l (npoints s) 0 + 1) (npoints s))
         (upd_nth l (nth l (gweight s) 0%Q + nth i sw 0%Q)%Q (gweight s))
         (upd_nth l (nth l (members s) [] ++ [i]) (members s)).

(* predict on ng grid points; np.argmin of an empty row raises: None *)
Definition predict_rows (ng : nat) (rows : list (list Z)) (sw : list Q) : option ast :=
  match ng, rows with
  | O, _ :: _ => None
  | _, _ => Some (fold_left (astep_row sw) rows (ast0 ng))
  end.

(* with the constructor's weight normalisation *)
Definition assign_rows (ng : nat) (rows : list (list Z)) (w : option (list Q)) : option ast :=
  predict_rows ng rows (norm_weights w (length rows)).

(* rows of the right shape *)
Definition rows_ok (ng : nat) (rows : list (list Z)) : Prop := Forall (fun r => length r = ng) rows.

(* correspondence predicate: as assign_case_ok, on the metric's rows *)
Definition assign_rows_case_ok (exact : bool) (eps : Q) (ng : nat) (rows : list (list Z))
    (w : option (list Q)) (o_w : list Q) (o_lab : list nat) (o_np : list Z)
    (o_gw : list Q) (o_mem : list (list nat)) : bool :=
  forallb (fun r => Nat.eqb (length r) ng) rows &&
  match assign_rows ng rows w with
  | None => false
  | Some s =>
      let weq := if exact then ql_eqb else list_eqb (qclose eps) in
      weq (norm_weights w (length rows)) o_w &&
      nl_eqb (labels s) o_lab && zl_eqb (npoints s) o_np &&
      weq (gweight s) o_gw && nm_eqb (members s) o_mem
  end.
