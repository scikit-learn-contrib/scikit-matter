(* C17, layer D — exact model of the discrete part of SparseKDE
   (src/skmatter/neighbors/_sparsekde.py):

     SparseKDE.__init__            weights = ones(n) if None;  weights /= sum(weights)
     _NearestGridAssigner.fit      zeroed counters / weights / empty member lists
     _NearestGridAssigner.predict  per descriptor: argmin of the metric row (first index),
                                   grid_npoints[l] += 1, grid_weight[l] += w[i],
                                   grid_neighbour[l].append(i)
     metric                        periodic_pairwise_euclidean_distances(.., squared=True):
                                   free space  |p - g|^2,
                                   with a cell |d - round(d / cell) * cell|^2, d = p - g,
                                   np.round = round-half-to-even.

   Positions are integers (the harness scales dyadic data by a power of two; every quantity
   here is homogeneous, lemmas [pdist_scale], [label_similar] in Proofs/SparseKDEP.v), weights are rationals.
   Definitions only. *)
From Verif Require Import ListX.
From Coq Require Import QArith Qabs.
Open Scope Z_scope.

(* ---- the metric ------------------------------------------------------------------ *)
(* np.round(x / c) for c > 0: nearest integer, ties to even *)
Definition rhe (x c : Z) : Z :=
  let q := x / c in
  let r := x mod c in
  if 2 * r <? c then q
  else if c <? 2 * r then q + 1
  else if Z.even q then q else q + 1.

(* xy -= np.round(xy / cell) * cell   (one coordinate) *)
Definition wrap (c x : Z) : Z := x - rhe x c * c.

Definition cellT := option (list Z).       (* metric_params["cell_length"]; None = free space *)

(* the displacement the metric squares *)
Definition delta (cell : cellT) (p g : list Z) : list Z :=
  match cell with
  | None => vsub p g
  | Some c => map2 wrap c (vsub p g)
  end.

(* metric(p, g) with squared=True *)
Definition pdist (cell : cellT) (p g : list Z) : Z := sqn (delta cell p g).

(* descriptor2grid = metric(point.reshape(1,-1), grid_pos) *)
Definition drow (cell : cellT) (G : list (list Z)) (p : list Z) : list Z :=
  map (pdist cell p) G.

(* np.argmin(descriptor2grid); only used when G <> [] (see [predict]) *)
Definition label (cell : cellT) (G : list (list Z)) (p : list Z) : nat :=
  match amin (drow cell G p) with Some (j, _) => j | None => O end.

(* ---- constructor: weight normalisation ---------------------------------------------- *)
Definition qsum (l : list Q) : Q := fold_right Qplus 0%Q l.

(* self.weights = weights if weights is not None else np.ones(len(descriptors)) *)
Definition raw_weights (w : option (list Q)) (n : nat) : list Q :=
  match w with Some l => l | None => repeat 1%Q n end.

(* self.weights /= np.sum(self.weights) *)
Definition norm_weights (w : option (list Q)) (n : nat) : list Q :=
  let l := raw_weights w n in map (fun x => (x / qsum l)%Q) l.

(* ---- _NearestGridAssigner ---------------------------------------------------------------- *)
Record ast := mk_ast {
  labels  : list nat;          (* labels_                         *)
  npoints : list Z;            (* grid_npoints                    *)
  gweight : list Q;            (* grid_weight                     *)
  members : list (list nat)    (* grid_neighbour[j], in insertion order *)
}.

(* fit *)
Definition ast0 (ng : nat) : ast :=
  mk_ast [] (repeat 0 ng) (repeat 0%Q ng) (repeat [] ng).

(* one iteration of the loop in predict; i = len(labels_) is the enumerate index *)
Definition astep (cell : cellT) (G : list (list Z)) (sw : list Q) (s : ast) (p : list Z) : ast :=
  let i := length (labels s) in
  let l := label cell G p in
  mk_ast (labels s ++ [l])
         (upd_nth l (nth l (npoints s) 0 + 1) (npoints s))
         (upd_nth l (nth l (gweight s) 0%Q + nth i sw 0%Q)%Q (gweight s))
         (upd_nth l (nth l (members s) [] ++ [i]) (members s)).

(* predict(descriptors, sample_weight = sw).  np.argmin of an empty row raises: None. *)
Definition predict (cell : cellT) (G D : list (list Z)) (sw : list Q) : option ast :=
  match G, D with
  | [], _ :: _ => None
  | _, _ => Some (fold_left (astep cell G sw) D (ast0 (length G)))
  end.

(* SparseKDE._assign_descriptors_to_grids with the constructor's weights *)
Definition assign (cell : cellT) (G D : list (list Z)) (w : option (list Q)) : option ast :=
  predict cell G D (norm_weights w (length D)).

(* ---- shapes / transformations used by the statements -------------------------------------- *)
Definition dimsZ (d : nat) (X : list (list Z)) : Prop := Forall (fun r => length r = d) X.
Definition vaddZ (t u : list Z) : list Z := map2 Z.add u t.           (* u + t *)
Definition cell_pos (c : list Z) : Prop := Forall (fun x => 0 < x) c.
(* p' = p + m (.) c  for an integer vector m: p shifted by whole cells *)
Definition image_of (c p p' : list Z) : Prop :=
  exists m, length m = length p /\ p' = map2 Z.add p (map2 Z.mul m c).

(* ---- correspondence predicates (run by the harness with vm_compute) ------------------------- *)
Definition ql_eqb := list_eqb Qeq_bool.
Definition qclose (eps a b : Q) : bool := Qle_bool (Qabs (a - b)) eps.
Definition nm_eqb := list_eqb nl_eqb.

(* observed: normalised weights, labels, counts, grid weights, member lists.
   [exact] = the weight total is a power of two, so binary64 is exact and everything
   must agree with [=]; otherwise weights are compared to within [eps]. *)
Definition assign_case_ok (exact : bool) (eps : Q) (cell : cellT) (G D : list (list Z))
    (w : option (list Q)) (o_w : list Q) (o_lab : list nat) (o_np : list Z)
    (o_gw : list Q) (o_mem : list (list nat)) : bool :=
  match assign cell G D w with
  | None => false
  | Some s =>
      let weq := if exact then ql_eqb else list_eqb (qclose eps) in
      weq (norm_weights w (length D)) o_w &&
      nl_eqb (labels s) o_lab && zl_eqb (npoints s) o_np &&
      weq (gweight s) o_gw && nm_eqb (members s) o_mem
  end.
